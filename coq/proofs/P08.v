(* C08: the structure factor equals the explicit sum over the unit-cell contents, and its consequences *)
From Coq Require Import Reals Lia Lra.
From XV Require Import RealLib Mat3 Cplx Cell Gen_tools Gen_structure P01_laue P14_cell P07 P07_gen P07_tab P08_orbit.
Import ListNotations.
Open Scope R_scope.

(* Debye-Waller factor of an atom for reflection h, with the operation's rotation applied to an anisotropic tensor:
   P07_gen.DW c (a_adp a) h Rm written out *)
Definition DW_of (c : V6) (a : atom) (h : V3) (Rm : M3) : R :=
  match a_adp a with
  | Uiso U => exp (-8 * PI ^ 2 * U * tools_sintl c h ^ 2)
  | Uani adp => exp (- quad h (mmul Rm (mmul (structure_Uij2betaij adp c) (mtrans Rm))))
  | NoAdp => 1
  end.

Lemma gen_term_DW c nsym a h o :
  gen_term c nsym a h o = cscale (DW_of c a h (fst o) * pop (a_occ a) (a_multi a) nsym) (cmul (phase h o (a_pos a)) (FF_of c a h)).
Proof. exact (gen_term_is_term c nsym a h o). Qed.

(* one atom of the cell: occupancy x (f + f' + i f'') x DW x exp(2 pi i h.r),  r = R x + t *)
Definition site_term (c : V6) (a : atom) (h : V3) (o : sop) : C :=
  cscale (a_occ a * DW_of c a h (fst o)) (cmul (phase h o (a_pos a)) (FF_of c a h)).
Definition SF_explicit (c : V6) (ops : list sop) (atoms : list atom) (h : V3) : C :=
  csum (map (fun a => csum (map (site_term c a h) (cell_sites (a_pos a) ops))) atoms).

(* an anisotropic tensor must have the symmetry of the site it sits on (two operations reaching the same site rotate it alike) *)
Definition adp_ok (c : V6) (ops : list sop) (a : atom) : Prop :=
  match a_adp a with
  | Uani adp => forall p q, In p ops -> In q ops -> sitekey (a_pos a) p = sitekey (a_pos a) q ->
                 mmul (fst p) (mmul (structure_Uij2betaij adp c) (mtrans (fst p))) = mmul (fst q) (mmul (structure_Uij2betaij adp c) (mtrans (fst q)))
  | _ => True
  end.

Lemma gen_term_site_invariant c nsym a h ops p q : int_vec h -> adp_ok c ops a -> In p ops -> In q ops ->
  sitekey (a_pos a) p = sitekey (a_pos a) q -> gen_term c nsym a h p = gen_term c nsym a h q.
Proof.
  intros Hh Hadp Hp Hq Hk. rewrite !gen_term_DW. f_equal; f_equal.
  - unfold DW_of, adp_ok in *. destruct (a_adp a) as [U|adp|]; try reflexivity. rewrite (Hadp p q Hp Hq Hk). reflexivity.
  - apply (cis_lattice h _ _ Hh), sitekey_iff, Hk.
Qed.

Lemma INR_len_pos {A} (l : list A) : l <> [] -> 0 < INR (length l).
Proof. destruct l; [congruence|]. intros _. apply lt_0_INR. cbn. lia. Qed.

Theorem atom_explicit c ops a h : int_vec h -> group_like ops -> adp_ok c ops a ->
  a_multi a = INR (length (cell_sites (a_pos a) ops)) ->
  csum (map (gen_term c (INR (length ops)) a h) ops) = csum (map (site_term c a h) (cell_sites (a_pos a) ops)).
Proof.
  intros Hh HG Hadp Hm.
  assert (Hne : ops <> []) by (destruct HG as [(e & He & _) _]; intro Z; rewrite Z in He; exact He).
  destruct (orbit_sum (a_pos a) ops (gen_term c (INR (length ops)) a h) HG) as (m & HL & E).
  { intros p q. apply (gen_term_site_invariant c _ a h ops); assumption. }
  rewrite E, <- csum_map_cscale. f_equal. apply map_ext. intros o.
  rewrite gen_term_DW. unfold site_term, pop. rewrite Hm, HL.
  pose proof (INR_len_pos ops Hne) as Hpos. rewrite HL in Hpos.
  assert (INR m <> 0 /\ INR (length (cell_sites (a_pos a) ops)) <> 0) as [N1 N2].
  { split; intro Z; rewrite Z in Hpos; lra. }
  rewrite cscale_cscale. f_equal. field; split; assumption.
Qed.

Theorem SF_is_explicit_sum c ops atoms h : int_vec h -> group_like ops ->
  (forall a, In a atoms -> adp_ok c ops a /\ a_multi a = INR (length (cell_sites (a_pos a) ops))) ->
  SF c ops atoms h = SF_explicit c ops atoms h.
Proof.
  intros Hh HG Hat. unfold SF, SF_explicit. f_equal. apply map_ext_in. intros a Ha.
  destruct (Hat a Ha) as [H1 H2]. apply atom_explicit; assumption.
Qed.

Definition set_pos (a : atom) (x : V3) : atom := mkAtom x (a_adp a) (a_occ a) (a_multi a) (a_ff a) (a_fp a) (a_fpp a).
Definition set_occ (a : atom) (o : R) : atom := mkAtom (a_pos a) (a_adp a) o (a_multi a) (a_ff a) (a_fp a) (a_fpp a).
Definition set_adp (a : atom) (k : adp_kind) : atom := mkAtom (a_pos a) k (a_occ a) (a_multi a) (a_ff a) (a_fp a) (a_fpp a).

Definition int_ops (ops : list sop) : Prop := forall o, In o ops -> exists A, fst o = matR A.

Lemma SF_head_ext c ops a a' rest h :
  (forall o, In o ops -> gen_term c (INR (length ops)) a h o = gen_term c (INR (length ops)) a' h o) ->
  SF c ops (a :: rest) h = SF c ops (a' :: rest) h.
Proof. intros H. unfold SF. cbn [map]. rewrite !csum_cons. f_equal. f_equal. apply map_ext_in. exact H. Qed.

(* 1. shifting an atom by a lattice vector changes nothing *)
Theorem SF_lattice_shift c ops a L rest h : int_vec h -> int_vec L -> int_ops ops ->
  SF c ops (set_pos a (vadd (a_pos a) L) :: rest) h = SF c ops (a :: rest) h.
Proof.
  intros Hh HL Hops. apply SF_head_ext. intros o Ho. rewrite !gen_term_DW. cbn [set_pos a_pos]. f_equal. f_equal.
  apply (cis_lattice h _ _ Hh), apply_latt; [exact (Hops o Ho)|]. exists L. split; [exact HL | reflexivity].
Qed.

(* 2. linear in the occupancy (and additive over atoms) *)
Theorem SF_app c ops l1 l2 h : SF c ops (l1 ++ l2) h = cadd (SF c ops l1 h) (SF c ops l2 h).
Proof. unfold SF. rewrite map_app, csum_app. reflexivity. Qed.
Theorem SF_occ_linear c ops a s h : SF c ops [set_occ a (s * a_occ a)] h = cscale s (SF c ops [a] h).
Proof.
  unfold SF. cbn [map]. rewrite !csum_cons, csum_nil, !cadd_0_r, <- csum_map_cscale. f_equal. apply map_ext. intros o.
  rewrite !gen_term_DW. unfold DW_of, FF_of, pop; cbn [set_occ a_pos a_adp a_occ a_multi a_ff a_fp a_fpp].
  rewrite cscale_cscale. f_equal. unfold Rdiv; ring.
Qed.

(* 3. an isotropic U and the anisotropic tensor that represents the same isotropic motion: U_ij = U cos(angle*_ij) *)
Definition iso_as_ani (c : V6) (U : R) : V6 :=
  let cs := tools_cell_invert c in
  mkV6 U U U (U * cos (rad (c3 cs))) (U * cos (rad (c4 cs))) (U * cos (rad (c5 cs))).

Lemma beta_iso c U : structure_Uij2betaij (iso_as_ani c U) c = mscale (2 * PI ^ 2 * U) (metric (tools_cell_invert c)).
Proof.
  unfold structure_Uij2betaij, iso_as_ani, metric; cbv zeta. set (cs := tools_cell_invert c).
  unfold mscale; cbn [Mat3.c0 Mat3.c1 c2 c3 c4 c5 m00 m01 m02 m10 m11 m12 m20 m21 m22]. f_equal; ring.
Qed.

(* the inverse metric is G*, the metric of the reciprocal cell, so sin(theta)/lambda = |h|_G* / 2 *)
Lemma sintl_sq c h : valid_cell c -> tools_sintl c h ^ 2 = quad h (metric (tools_cell_invert c)) / 4.
Proof.
  intros Hc. rewrite tl_cell_invert, laue_cell_invert_minv, sintl_quad by exact Hc.
  unfold Rdiv. rewrite Rpow_mult_distr, <- Rsqr_pow2, Rsqr_sqrt; [field|].
  rewrite <- laue_BtB_inv, <- vnorm2_quad by exact Hc. apply vnorm2_nonneg.
Qed.

Theorem DW_iso_equals_ani c U h Rm a : valid_cell c ->
  mmul Rm (mmul (metric (tools_cell_invert c)) (mtrans Rm)) = metric (tools_cell_invert c) ->
  DW_of c (set_adp a (Uani (iso_as_ani c U))) h Rm = DW_of c (set_adp a (Uiso U)) h Rm.
Proof.
  intros Hc HR. unfold DW_of; cbn [set_adp a_adp]. f_equal.
  rewrite beta_iso, mmul_mscale_l, mmul_mscale_r, HR, quad_mscale, sintl_sq by exact Hc. field.
Qed.

Theorem SF_iso_equals_ani c ops a U rest h : valid_cell c ->
  (forall o, In o ops -> mmul (fst o) (mmul (metric (tools_cell_invert c)) (mtrans (fst o))) = metric (tools_cell_invert c)) ->
  SF c ops (set_adp a (Uani (iso_as_ani c U)) :: rest) h = SF c ops (set_adp a (Uiso U) :: rest) h.
Proof.
  intros Hc Hops. apply SF_head_ext. intros o Ho. rewrite !gen_term_DW.
  rewrite (DW_iso_equals_ani c U h (fst o) a Hc (Hops o Ho)). reflexivity.
Qed.

(* 4. F(000) is the occupancy-weighted sum of f(0) + f' + i f'' over the cell (the property says it for zero displacement;
   at h = 0 the displacement factor is 1 whatever the parameters) *)
Definition zero_adp (a : atom) : Prop :=
  match a_adp a with Uiso U => U = 0 | Uani adp => adp = mkV6 0 0 0 0 0 0 | NoAdp => True end.
Definition v0 : V3 := mkV3 0 0 0.

Lemma quad_v0 M : quad v0 M = 0.
Proof. destruct M; unfold quad, vdot, mvmul, v0; cbn; ring. Qed.
(* for any six numbers c: at h = 0 the generated radicand is 0, and sqrt 0 / d = 0 whatever d is *)
Lemma sintl_v0 c : tools_sintl c v0 = 0.
Proof.
  unfold tools_sintl, v0, Rdiv; cbn [vx vy vz]; cbv zeta. apply Rmult_eq_0_compat_r.
  transitivity (sqrt 0); [f_equal; ring | apply sqrt_0].
Qed.

(* at h = 0 the displacement factor is 1 whatever the parameters, and so is the phase *)
Lemma DW_of_v0 c a Rm : DW_of c a v0 Rm = 1.
Proof.
  unfold DW_of. destruct (a_adp a) as [U|adp|]; [| |reflexivity]; rewrite <- exp_0; f_equal.
  - rewrite sintl_v0. ring.
  - rewrite quad_v0. ring.
Qed.
Lemma phase_v0 o x : phase v0 o x = c1.
Proof.
  unfold phase. replace (2 * PI * vdot v0 (apply_op o x)) with 0 by (destruct (apply_op o x); unfold vdot, v0; cbn; ring).
  apply cis_0.
Qed.

Theorem SF_000_any c ops atoms : ops <> [] ->
  SF c ops atoms v0 = csum (map (fun a => cscale (a_occ a * a_multi a) (a_ff a 0 + a_fp a, a_fpp a)) atoms).
Proof.
  intros Hne. unfold SF. f_equal. apply map_ext. intros a.
  set (n := INR (length ops)). assert (Hn : 0 < n) by (apply INR_len_pos; exact Hne).
  rewrite (map_ext _ (fun _ => cscale (a_occ a * a_multi a / n) (a_ff a 0 + a_fp a, a_fpp a))).
  - rewrite csum_map_const, cscale_cscale. fold n. f_equal. field; lra.
  - intros o. rewrite gen_term_DW, DW_of_v0, phase_v0, cmul_1_l. unfold FF_of, pop. rewrite sintl_v0.
    f_equal. ring.
Qed.

Theorem SF_000 c ops atoms : valid_cell c -> ops <> [] -> (forall a, In a atoms -> zero_adp a) ->
  SF c ops atoms v0 = csum (map (fun a => cscale (a_occ a * a_multi a) (a_ff a 0 + a_fp a, a_fpp a)) atoms).
Proof. intros _ Hne _. apply SF_000_any; exact Hne. Qed.
