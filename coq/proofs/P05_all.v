(* C05: the model of genhkl_all over a fundamental domain.  fund_domain L segs: L is a finite group of integer matrices and the
   cones of segs (no segment twice, independent directions) hold exactly one member of every orbit of L on Z^3 \ 0.  Then, with
   L = rots ++ -rots, the representatives found by the traversal, expanded by rots and their negatives, are the allowed reflections
   of the shell, each once - for every metric under which the traversal is complete (gram_ok) and which, like the reflection
   conditions, is invariant under L.  No table is mentioned here: that the Laue group and the segments of every setting are such
   a pair is P05_nodup.setting_domain. *)
From Coq Require Import ZArith List.
From XV Require Import SGroup HklModel Traverse P05 P05_complete SGFacts.
Import ListNotations.
Open Scope Z_scope.

Lemma vmZ_zero R x y z : vmZ (x, y, z) R = (0, 0, 0) -> forall R', mmulZ R R' = mI9 -> (x, y, z) = (0, 0, 0).
Proof. intros E R' HI. rewrite <- (vmZ_I (x, y, z)), <- HI, <- vmZ_mmulZ, E. destruct R' as [[[[[[[[a b] c] d] e] f] g] hh] i]. reflexivity. Qed.

Lemma expand_laue rots h x : In x (expand rots h) <-> exists R, In R (rots ++ map mnegZ rots) /\ x = vmZ h R.
Proof.
  rewrite (proj2 (expand_is_orbit rots h) x). split.
  - intros (R & HR & [E|E]); [exists R | exists (mnegZ R)]; (split; [apply in_or_app | exact E]); [left; exact HR | right; apply in_map; exact HR].
  - intros (R & HR & E). apply in_app_or in HR. destruct HR as [HR|HR]; [exists R; auto|].
    apply in_map_iff in HR. destruct HR as (R0 & <- & HR0). exists R0. auto.
Qed.

Record fund_domain (L : list mat) (segs : list (list (list Z))) : Prop := {
  dom_group : mat_group L;
  dom_cover : forall h, h <> (0, 0, 0) -> exists R seg, In R L /\ In seg segs /\ in_cone seg (vmZ h R);
  dom_one : forall R seg1 seg2 x, In R L -> In seg1 segs -> In seg2 segs -> in_cone seg1 x -> in_cone seg2 (vmZ x R) -> vmZ x R = x /\ seg1 = seg2;
  dom_nodup : NoDup segs;
  dom_det : forall seg, In seg segs -> det3 (vec3 (nth 1 seg [])) (vec3 (nth 2 seg [])) (vec3 (nth 3 seg [])) <> 0 }.
Arguments dom_group {L segs}.
Arguments dom_cover {L segs}.
Arguments dom_one {L segs}.
Arguments dom_nodup {L segs}.
Arguments dom_det {L segs}.

Section Domain.
Variables (L rots : list mat) (segs : list (list (list Z))).
Hypothesis HL : L = rots ++ map mnegZ rots.
Hypothesis D : fund_domain L segs.
Variable G : metricZ.
Variables Tmin Tmax Tterm : Z.
Variable allowed : hkl -> bool.
Variables (fuel : nat) (reps : list hkl).
Hypothesis Hreps : all_segments G Tmin Tmax Tterm allowed fuel segs = Some reps.

Theorem domain_reps_nodup : NoDup reps.
Proof.
  apply (all_segments_nodup G Tmin Tmax Tterm allowed fuel segs reps Hreps (dom_nodup D) (dom_det D)).
  intros s1 s2 x H1 H2 C1 C2. rewrite <- (vmZ_I x) in C2. exact (proj2 (dom_one D mI9 s1 s2 x (grp_id (dom_group D)) H1 H2 C1 C2)).
Qed.

Theorem domain_rows_nodup : NoDup (flat_map (expand rots) reps).
Proof.
  apply flat_map_nodup; [exact domain_reps_nodup | intros x _; exact (proj1 (expand_is_orbit rots x)) |].
  intros x x' y Hx Hx' Hy Hy'. apply expand_laue in Hy, Hy'. rewrite <- HL in Hy, Hy'. destruct Hy as (R1 & HR1 & E1). destruct Hy' as (R2 & HR2 & E2).
  destruct (grp_inv (dom_group D) R2 HR2) as (R2' & HR2' & EI).
  (* x' = y R2' = x (R1 R2'), and both are rows of the traversal *)
  symmetry. apply (rows_one G Tmin Tmax Tterm allowed L fuel segs reps (dom_one D) Hreps x x' (mmulZ R1 R2') Hx Hx' (grp_mul (dom_group D) R1 R2' HR1 HR2')).
  rewrite <- vmZ_mmulZ, <- E1, E2, vmZ_mmulZ, EI, vmZ_I. reflexivity.
Qed.

Hypothesis HT : Tmax <= Tterm.
Hypothesis Hmono : forall seg, In seg segs -> gram_ok G seg = true.
Hypothesis Hq : forall R h, In R L -> qform G (vmZ h R) = qform G h.
Hypothesis Ha : forall R h, In R L -> qform G h <= Tmax -> allowed (vmZ h R) = allowed h.

Theorem domain_complete h : h <> (0, 0, 0) -> allowed h = true -> Tmin < qform G h <= Tmax -> In h (flat_map (expand rots) reps).
Proof.
  intros Hnz Hal Hsh. destruct (dom_cover D h Hnz) as (R & seg & HR & Hseg & Hc).
  (* the member of the orbit that lies in a cone is a row of the traversal *)
  assert (Krep : In (vmZ h R) reps).
  { apply (all_segments_complete G Tmin Tmax Tterm allowed HT fuel segs reps Hreps Hmono _ seg Hseg Hc).
    apply keep_spec. rewrite (Ha R _ HR (proj2 Hsh)), (Hq R _ HR). auto. }
  (* and h is in its expansion, through the inverse of R *)
  destruct (grp_inv (dom_group D) R HR) as (R' & HR' & EI).
  apply in_flat_map. exists (vmZ h R). split; [exact Krep|].
  apply expand_laue. rewrite <- HL. exists R'. split; [exact HR'|]. rewrite vmZ_mmulZ, EI, vmZ_I. reflexivity.
Qed.

Theorem domain_exact : 0 <= Tmin ->
  NoDup (flat_map (expand rots) reps) /\ forall h, In h (flat_map (expand rots) reps) <-> (allowed h = true /\ Tmin < qform G h <= Tmax).
Proof.
  intros H0. split; [exact domain_rows_nodup|]. intros h. split.
  - intros Hin. apply in_flat_map in Hin. destruct Hin as (x & Hx & Hh).
    destruct (all_segments_sound G Tmin Tmax Tterm allowed fuel segs reps Hreps x Hx) as [[Kx Sx] _].
    apply expand_laue in Hh. rewrite <- HL in Hh. destruct Hh as (R & HRL & ->).
    rewrite (Ha R x HRL (proj2 Sx)), (Hq R x HRL). split; assumption.
  - intros [Hal Hsh]. apply domain_complete; [exact (shell_nz G Tmin h H0 (proj1 Hsh)) | exact Hal | exact Hsh].
Qed.
End Domain.
