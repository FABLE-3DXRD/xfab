(* C07: structure factors transform correctly under the space-group operations.
   The general re-indexing argument for a sum over an operation list.
   A term is  w(h, R) . cis(2 pi h.(R x + t)) . ff(h)  with a real weight w (Debye-Waller factor x site population) and a complex
   scattering factor ff = (f + f', f''). *)
From Coq Require Import Reals Lra Permutation.
From XV Require Import RealLib Mat3 Cplx.
Import ListNotations.
Open Scope R_scope.

Definition sop := (M3 * V3)%type.       (* x -> R x + t *)
Definition apply_op (o : sop) (x : V3) : V3 := vadd (mvmul (fst o) x) (snd o).
Definition phase (h : V3) (o : sop) (x : V3) : C := cis (2 * PI * vdot h (apply_op o x)).

(* left composition by (Rk, tk) permutes the list modulo lattice translations *)
Definition left_closed (k : sop) (ops : list sop) : Prop :=
  exists ops', Permutation ops' ops /\
    Forall2 (fun p p' => mmul (fst k) (fst p) = fst p' /\
                         exists L, int_vec L /\ vadd (mvmul (fst k) (snd p)) (snd k) = vadd (snd p') L) ops ops'.

(* an integer reflection does not see lattice translations *)
Lemma cis_lattice h u v : int_vec h -> (exists L, int_vec L /\ u = vadd v L) -> cis (2 * PI * vdot h u) = cis (2 * PI * vdot h v).
Proof.
  intros Hh (L & HL & ->). rewrite vdot_vadd. destruct (int_dot h L Hh HL) as [z ->].
  rewrite Rmult_plus_distr_l, cis_add, cis_2PI_Z, cmul_comm. apply cmul_1_l.
Qed.

(* when k o p = p' modulo the lattice, k sends the image of x under p to its image under p', modulo the lattice *)
Lemma compose_image k p p' x : mmul (fst k) (fst p) = fst p' ->
  (exists L, int_vec L /\ vadd (mvmul (fst k) (snd p)) (snd k) = vadd (snd p') L) ->
  exists L, int_vec L /\ apply_op k (apply_op p x) = vadd (apply_op p' x) L.
Proof.
  intros HR (L & HL & Ht). exists L. split; [exact HL|]. unfold apply_op. rewrite <- HR.
  destruct (fst k), (fst p), (snd p), (snd k), (snd p'), L, x. unfold vadd, mvmul, mmul in *; cbn in *. injection Ht as T1 T2 T3. f_equal; lra.
Qed.

Lemma phase_shift_term h k p p' x : int_vec h ->
  mmul (fst k) (fst p) = fst p' ->
  (exists L, int_vec L /\ vadd (mvmul (fst k) (snd p)) (snd k) = vadd (snd p') L) ->
  phase (rowmul h (fst k)) p x = cmul (cis (- (2 * PI * vdot h (snd k)))) (phase h p' x).
Proof.
  intros Hh HR HL. unfold phase. rewrite dot_rowmul.
  (* h.(Rk y) = h.(k y) - h.tk *)
  replace (vdot h (mvmul (fst k) (apply_op p x))) with (- vdot h (snd k) + vdot h (apply_op k (apply_op p x)))
    by (unfold apply_op at 1; rewrite vdot_vadd; ring).
  rewrite Rmult_plus_distr_l, cis_add, (cis_lattice h _ _ Hh (compose_image k p p' x HR HL)). f_equal. f_equal. ring.
Qed.

Section Sum.
Variable x : V3.                       (* fractional position of the atom *)
Variable W : V3 -> M3 -> R.            (* weight: Debye-Waller factor times site population, may depend on h and on the rotation *)
Variable FF : V3 -> C.                 (* (f + f', f'') , depends on h through sin(theta)/lambda *)

Definition term (h : V3) (o : sop) : C := cscale (W h (fst o)) (cmul (phase h o x) (FF h)).
Definition SFatom (ops : list sop) (h : V3) : C := csum (map (term h) ops).

Theorem phase_shift ops k h : int_vec h -> left_closed k ops ->
  (forall Rm, W (rowmul h (fst k)) Rm = W h (mmul (fst k) Rm)) -> FF (rowmul h (fst k)) = FF h ->
  SFatom ops (rowmul h (fst k)) = cmul (cis (- (2 * PI * vdot h (snd k)))) (SFatom ops h).
Proof.
  intros Hh (ops' & HP & HF) HW HFF. unfold SFatom.
  rewrite <- (csum_perm _ _ (Permutation_map (term h) HP)).
  rewrite <- csum_map_cmul.
  f_equal. clear HP. induction HF as [|p p' l l' [HR HL] HF' IH]; [reflexivity|].
  cbn [map]. f_equal; [|exact IH].
  unfold term. rewrite HW, HFF, HR, (phase_shift_term h k p p' x Hh HR HL), cmul_assoc. apply cscale_cmul.
Qed.

Corollary equiv_modulus ops k h : int_vec h -> left_closed k ops ->
  (forall Rm, W (rowmul h (fst k)) Rm = W h (mmul (fst k) Rm)) -> FF (rowmul h (fst k)) = FF h ->
  cnorm2 (SFatom ops (rowmul h (fst k))) = cnorm2 (SFatom ops h).
Proof. intros. rewrite phase_shift by assumption. apply cnorm2_cis_cmul. Qed.

Corollary extinct_zero ops k h : int_vec h -> left_closed k ops ->
  (forall Rm, W (rowmul h (fst k)) Rm = W h (mmul (fst k) Rm)) -> FF (rowmul h (fst k)) = FF h ->
  rowmul h (fst k) = h -> cis (- (2 * PI * vdot h (snd k))) <> c1 -> SFatom ops h = c0.
Proof.
  intros Hh Hc HW HF Hfix Hne. apply (fix_zero _ _ Hne).
  rewrite <- Hfix at 1. apply phase_shift; assumption.
Qed.
End Sum.

(* Friedel: without dispersion (f'' = 0, real ff) and a weight even in h, F(-h) is the conjugate of F(h) *)
Definition vneg (h : V3) : V3 := mkV3 (- vx h) (- vy h) (- vz h).
Theorem friedel x W (f : V3 -> R) ops h : (forall Rm, W (vneg h) Rm = W h Rm) -> f (vneg h) = f h ->
  SFatom x W (fun h => (f h, 0)) ops (vneg h) = cconj (SFatom x W (fun h => (f h, 0)) ops h).
Proof.
  intros HW Hf. unfold SFatom. rewrite <- csum_map_conj. f_equal. apply map_ext. intros o.
  unfold term, phase. rewrite HW, Hf.
  replace (2 * PI * vdot (vneg h) (apply_op o x)) with (- (2 * PI * vdot h (apply_op o x))) by (destruct h, (apply_op o x); unfold vdot, vneg; cbn; ring).
  rewrite cis_neg. cring.
Qed.
