(* C15 on the regenerated tables *)
From Coq Require Import List.
From XV Require Import SGroup Mult Tab_sg_all P04 P15.
Import ListNotations.

Lemma all_tight : forallb trans_tight all_settings = true.
Proof. vm_compute. reflexivity. Qed.

Theorem multiplicity_all s p : In s all_settings ->
  exists ops, ops_of (sg_rot s) (sg_trans s) = Some ops /\ model_mult s p = Some (orbit_size ops p).
Proof.
  intros H. destruct (setting_ops s H) as (ops & E & _).
  exists ops. split; [exact E|]. apply mult_is_orbit_size; [exact E | exact (proj1 (forallb_forall _ _) all_tight s H)].
Qed.
