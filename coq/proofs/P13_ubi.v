(* C13: form_a_mat recovers upper triangular positive-diagonal matrices; strained B matrices; ubi_to_u_and_eps *)
From Coq Require Import Reals Psatz.
From XV Require Import Mat3 Cell Gen_laue P01_laue P02_laue P13_laue.
Open Scope R_scope.

Lemma laue_form_a_of_cell A : upper_posdiag A -> laue_form_a_mat (laue_a_to_cell A) = A.
Proof.
  intros HA. destruct (laue_a_to_cell_valid A) as [V M]; [apply Rgt_not_eq, upper_posdiag_det, HA|].
  apply laue_A_unique; [exact V | exact HA | symmetry; exact M].
Qed.

(* P13_laue.strain_ok (diagonal strains <> -1) keeps the strained matrix invertible; to be read back from a UBI it must also keep its
   positive diagonal *)
Definition strain_small (eps : V6) : Prop := -1 < c0 eps /\ -1 < c3 eps /\ -1 < c5 eps.

Lemma strain_small_ok eps : strain_small eps -> strain_ok eps.
Proof. intros (S0 & S1 & S2). repeat split; lra. Qed.

Lemma Tmat_posdiag B0 eps : upper_posdiag B0 -> strain_small eps -> upper_posdiag (Tmat B0 eps).
Proof.
  intros [_ (P0 & P1 & P2)] (S0 & S1 & S2). apply upper_posdiag_mk; apply Rdiv_lt_0_compat; lra.
Qed.

Lemma laue_strained_b_posdiag eps c : valid_cell c -> strain_small eps -> upper_posdiag (laue_epsilon_to_b eps c).
Proof.
  intros Hc Hs. rewrite laue_epsilon_to_b_def. apply upper_posdiag_minv, Tmat_posdiag; [apply laue_B_upper_posdiag; exact Hc | exact Hs].
Qed.

Lemma laue_ubi_to_u_and_eps_def A c :
  laue_ubi_to_u_and_eps A c =
  (laue_ubi_to_u A, laue_b_to_epsilon (minv (mmul A (laue_ubi_to_u A))) c).
Proof. reflexivity. Qed.

Lemma laue_ubi_to_u_and_eps_general U B c : is_rot U -> upper_posdiag B ->
  laue_ubi_to_u_and_eps (minv (mmul U B)) c = (U, laue_b_to_epsilon B c).
Proof.
  intros HU HB. pose proof (upper_posdiag_det B HB) as DB.
  rewrite laue_ubi_to_u_and_eps_def, laue_ubi_to_u_general by assumption.
  rewrite minv_rot_mmul_u, minv_invol by (first [exact HU | lra]). reflexivity.
Qed.

Lemma laue_ubi_u_eps U eps c : is_rot U -> valid_cell c -> strain_small eps ->
  laue_ubi_to_u_and_eps (minv (mmul U (laue_epsilon_to_b eps c))) c = (U, eps).
Proof.
  intros HU Hc Hs. rewrite laue_ubi_to_u_and_eps_general by (first [exact HU | apply laue_strained_b_posdiag; assumption]).
  rewrite laue_eps_roundtrip by (first [exact Hc | apply strain_small_ok; exact Hs]). reflexivity.
Qed.
