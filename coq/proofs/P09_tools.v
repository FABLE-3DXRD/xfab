(* C09 for xfab.tools.  General and quart solver: the same models with gn := g (tools does not rescale g; it asserts
   |g|^2 = sin^2(theta)).  find_omega divides by |g| and asserts nothing; find_omega_wedge rescales g itself (tl_find_omega_wedge). *)
From Coq Require Import Reals Lra List.
From XV Require Import Mat3 OmegaSolve Cell Gen_tools P01_tools P03_laue P14_rot P09_laue P09_plain P09_quart P09_wedge.
Import ListNotations.
Open Scope R_scope.

Lemma tools_general_refines g tth wx wy :
  tools_find_omega_general g tth wx wy =
  if Rlt_dec (Rabs ((vx g * vx g + vy g * vy g + vz g * vz g) - sin (tth / 2) ^ 2)) (1 / 1000000000)
  then Some (omega_general_model g tth wx wy) else None.
(* instantiated with the tools matrix, so that the two modules' (convertible) matrix functions are compared once and not at every use *)
Proof. exact (solver_code_shape g tth (fun w => tools_form_omega_mat_general w wx wy) _ _ _ _ _). Qed.

Lemma tools_quart_refines g tth wx wy :
  tools_find_omega_quart g tth wx wy =
  if Rlt_dec (Rabs ((vx g * vx g + vy g * vy g + vz g * vz g) - sin (tth / 2) ^ 2)) (1 / 1000000000)
  then Some (omega_quart_model g tth wx wy) else None.
Proof. exact (solver_code_shape g tth (fun w => tools_quart_to_omega (w * 180 / PI) wx wy) _ _ _ _ _). Qed.

Lemma tools_plain_refines g tth : tools_find_omega g tth = omega_plain_model g tth.
Proof. exact (plain_code_shape _ _ _). Qed.

Theorem tools_find_omega_general_sound g tth wx wy oms etas :
  0 < tth < PI -> vx g * vx g + vy g * vy g + vz g * vz g = sin (tth / 2) * sin (tth / 2) ->
  gen_a g wy * gen_a g wy + gen_b g wy * gen_b g wy <> 0 ->
  tools_find_omega_general g tth wx wy = Some (oms, etas) ->
  (forall w e, In (w, e) (combine oms etas) -> diffracts (tools_form_omega_mat_general w wx wy) g tth e) /\
  (forall w, In w oms -> - PI < w <= PI) /\
  (forall w, - PI < w <= PI -> vx (mvmul (tools_form_omega_mat_general w wx wy) g) = - (sin (tth / 2) * sin (tth / 2)) -> In w oms).
Proof.
  intros Ht Hn Hab E. rewrite tools_general_refines in E. apply if_Some_inv in E.
  destruct (solver_model_sound g tth _ _ _ _ Ht Hn (general_sinusoid g wx wy) Hab oms etas E) as (S & Rg & C & _). auto.
Qed.

Theorem tools_find_omega_quart_sound g tth wx wy oms etas :
  0 < tth < PI -> vx g * vx g + vy g * vy g + vz g * vz g = sin (tth / 2) * sin (tth / 2) ->
  quart_a g wx wy * quart_a g wx wy + quart_b g wx wy * quart_b g wx wy <> 0 ->
  tools_find_omega_quart g tth wx wy = Some (oms, etas) ->
  (forall w e, In (w, e) (combine oms etas) -> diffracts (tools_quart_to_omega (w * 180 / PI) wx wy) g tth e) /\
  (forall w, In w oms -> - PI < w <= PI) /\
  (forall w, - PI < w <= PI -> vx (mvmul (tools_quart_to_omega (w * 180 / PI) wx wy) g) = - (sin (tth / 2) * sin (tth / 2)) -> In w oms).
Proof.
  intros Ht Hn Hab E. rewrite tools_quart_refines in E. apply if_Some_inv in E.
  destruct (solver_model_sound g tth _ _ _ _ Ht Hn (quart_sinusoid g wx wy) Hab oms etas E) as (S & Rg & C & _). auto.
Qed.

Theorem tools_find_omega_sound g tth w : 0 < tth < PI ->
  vx g * vx g + vy g * vy g + vz g * vz g = sin (tth / 2) * sin (tth / 2) -> vx g * vx g + vy g * vy g <> 0 ->
  In w (tools_find_omega g tth) ->
  vx (mvmul (tools_form_omega_mat w) g) = - (sin (tth / 2) * sin (tth / 2)) /\ - PI < w <= PI.
Proof.
  intros Ht Hn Hxy Hin. rewrite tools_plain_refines in Hin. rewrite tl_form_omega_mat, laue_omega_comp.
  eapply plain_sound; eassumption.
Qed.

Lemma tools_tth_def c h wl : tools_tth c h wl = 2 * asin (wl * tools_sintl c h).
Proof. reflexivity. Qed.
Lemma tools_tth_eq_tth2 U c h wl : is_rot U -> valid_cell c ->
  tools_tth2 (mvmul (mmul U (tools_form_b_mat c)) h) wl = tools_tth c h wl.
Proof.
  intros HU Hc. rewrite tools_tth_def, tools_sintl_norm by exact Hc. unfold tools_tth2; cbv zeta.
  rewrite mvmul_mmul. set (v := mvmul (tools_form_b_mat c) h).
  pose proof (rot_vnorm2 U v HU) as N. unfold vnorm2, vdot in N. unfold vnorm, vnorm2, vdot.
  rewrite N. f_equal. f_equal. pose proof PI_RGT_0. field. lra.
Qed.

Lemma tools_find_omega_wedge_sound g tth wedge oms etas :
  0 < tth < PI -> vx g * vx g + vy g * vy g <> 0 -> cos wedge <> 0 ->
  tools_find_omega_wedge g tth wedge = (oms, etas) ->
  let gn := normalise_to tth g in let ce := wedge_coseta g tth wedge in
  (1 < Rabs ce -> oms = [] /\ etas = []) /\
  (Rabs ce <= 1 ->
     exists w1 w2, oms = [w1; w2] /\ etas = [acos ce; - acos ce] /\
       diffracts (wedge_mat wedge w1) gn tth (acos ce) /\ diffracts (wedge_mat wedge w2) gn tth (- acos ce) /\
       - PI < w1 <= PI /\ - PI < w2 <= PI).
Proof. rewrite tl_find_omega_wedge. apply laue_find_omega_wedge_sound. Qed.
Lemma tools_find_omega_wedge_complete g tth wedge w :
  0 < tth < PI -> vx g * vx g + vy g * vy g <> 0 -> cos wedge <> 0 ->
  let gn := normalise_to tth g in
  - PI < w <= PI -> vx (mvmul (wedge_mat wedge w) gn) = - (sin (tth / 2) * sin (tth / 2)) ->
  Rabs (wedge_coseta g tth wedge) <= 1 /\ In w (fst (tools_find_omega_wedge g tth wedge)).
Proof. rewrite tl_find_omega_wedge. apply laue_find_omega_wedge_complete. Qed.
