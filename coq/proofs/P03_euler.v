(* C03: u_to_euler (laue; tools is the same function by C14).  Range of the returned angles, and the exact inverse
   euler_to_u (u_to_euler U) = U away from the two tolerance bands of the code (gimbal band |PHI| or |PHI - pi| < 1e-8; an
   argument of _arctan2 below 1e-8 relative to the other). *)
From Coq Require Import Reals Psatz.
From XV Require Import Mat3 Atan2 Gen_laue P03_laue.
Open Scope R_scope.

(* _arctan2: numpy's arctan2 after the argument below 1e-8 of the other has been set to 0 *)
Definition snap (o v : R) : R := if Rlt_dec (Rabs v) (1 / 100000000 * Rabs o) then 0 else v.

Lemma snap_id o v : 1 / 100000000 * Rabs o <= Rabs v -> snap o v = v.
Proof. intros H. unfold snap. destruct (Rlt_dec _ _); [lra | reflexivity]. Qed.

(* case on the test of the first `if` in the goal; a branch whose test contradicts the context goes at once *)
Ltac split_if := match goal with |- context [if ?c then _ else _] => destruct c end; try (exfalso; lra).

(* the decision tree of the generated model is walked once, here; infeasible branches are cut as soon as they appear *)
Lemma arctan2_nz y x : x <> 0 \/ y <> 0 -> laue_arctan2 y x = Some (atan2 (snap x y) (snap y x)).
Proof.
  intros N. unfold laue_arctan2, snap; cbv zeta. unfold Rabs. destruct (Rcase_abs x), (Rcase_abs y).
  all: repeat split_if.
  all: unfold atan2; repeat split_if.
  all: unfold Rdiv; rewrite ?Rmult_0_l, ?atan_0; f_equal; lra.
Qed.

Lemma arctan2_00 : laue_arctan2 0 0 = None.
Proof. unfold laue_arctan2; cbv zeta. unfold Rabs. destruct (Rcase_abs 0). all: repeat split_if; reflexivity. Qed.

Lemma arctan2_inv y x r : laue_arctan2 y x = Some r -> (x <> 0 \/ y <> 0) /\ r = atan2 (snap x y) (snap y x).
Proof.
  intros H. assert (N : x <> 0 \/ y <> 0).
  { destruct (Req_dec x 0) as [->|]; [|tauto]. destruct (Req_dec y 0) as [->|]; [|tauto]. rewrite arctan2_00 in H. discriminate. }
  rewrite (arctan2_nz y x N) in H. injection H as <-. tauto.
Qed.

Lemma arctan2_range y x r : laue_arctan2 y x = Some r -> - PI < r <= PI.
Proof. intros H. apply arctan2_inv in H as [_ ->]. apply atan2_range. Qed.

Definition generic (y x : R) : Prop :=
  (x <> 0 \/ y <> 0) /\ 1 / 100000000 * Rmax (Rabs x) (Rabs y) <= Rabs x /\ 1 / 100000000 * Rmax (Rabs x) (Rabs y) <= Rabs y.

Lemma arctan2_generic y x : generic y x -> laue_arctan2 y x = Some (atan2 y x).
Proof.
  intros (Hnz & Hx & Hy). pose proof (Rmax_l (Rabs x) (Rabs y)). pose proof (Rmax_r (Rabs x) (Rabs y)).
  rewrite (arctan2_nz y x Hnz), !snap_id by lra. reflexivity.
Qed.

(* u_to_euler: two raw angles from _arctan2, each moved into [0, 2 pi) *)
Definition wrap_pos (r : R) : R := if Rlt_dec r 0 then r + 2 * PI else r.

Lemma wrap_pos_range r : - PI < r <= PI -> 0 <= wrap_pos r < 2 * PI.
Proof. intros H. unfold wrap_pos. destruct (Rlt_dec r 0); lra. Qed.

Lemma wrap_pos_0 : wrap_pos 0 = 0.
Proof. unfold wrap_pos. destruct (Rlt_dec 0 0); lra. Qed.

Lemma Rz_wrap_pos r : Rz (wrap_pos r) = Rz r.
Proof.
  unfold wrap_pos. destruct (Rlt_dec r 0); [|reflexivity].
  unfold Rz. rewrite cos_plus, sin_plus, cos_2PI, sin_2PI. f_equal; ring.
Qed.

Lemma wrap_pos_atan2 k t : 0 < k -> 0 <= t < 2 * PI -> wrap_pos (atan2 (k * sin t) (k * cos t)) = t.
Proof.
  intros Hk Ht. unfold wrap_pos. destruct (Rle_dec t PI).
  - rewrite atan2_polar by lra. destruct (Rlt_dec t 0); lra.
  - replace (sin t) with (sin (t - 2 * PI)) by (rewrite sin_minus, cos_2PI, sin_2PI; ring).
    replace (cos t) with (cos (t - 2 * PI)) by (rewrite cos_minus, cos_2PI, sin_2PI; ring).
    rewrite atan2_polar by lra. destruct (Rlt_dec (t - 2 * PI) 0); lra.
Qed.

Definition euler_raw (U : M3) : option (R * R) :=
  if Rlt_dec (Rabs (acos (m22 U))) (1 / 100000000) then option_map (fun r => (r, 0)) (laue_arctan2 (- m01 U) (m00 U))
  else if Rlt_dec (Rabs (acos (m22 U) - PI)) (1 / 100000000) then option_map (fun r => (r, 0)) (laue_arctan2 (m01 U) (m00 U))
  else match laue_arctan2 (m02 U) (- m12 U), laue_arctan2 (m20 U) (m21 U) with
       | Some r1, Some r2 => Some (r1, r2)
       | _, _ => None
       end.

Lemma u_to_euler_eq U :
  laue_u_to_euler U = option_map (fun r => mkV3 (wrap_pos (fst r)) (acos (m22 U)) (wrap_pos (snd r))) (euler_raw U).
Proof.
  unfold laue_u_to_euler, euler_raw.
  repeat match goal with
         | |- context [laue_arctan2 ?y ?x] => destruct (laue_arctan2 y x)
         | |- context [Rlt_dec (Rabs ?a) ?b] => destruct (Rlt_dec (Rabs a) b)
         end; cbn [option_map fst snd]; rewrite ?wrap_pos_0; unfold wrap_pos;
  repeat match goal with |- context [Rlt_dec ?r 0] => destruct (Rlt_dec r 0) end; reflexivity.
Qed.

(* what every proof about a returned triple starts from *)
Lemma u_to_euler_inv U e : laue_u_to_euler U = Some e -> exists r1 r2,
  euler_raw U = Some (r1, r2) /\ e = mkV3 (wrap_pos r1) (acos (m22 U)) (wrap_pos r2) /\
  laue_euler_to_u (vx e) (vy e) (vz e) = mmul (Rz r1) (mmul (Rx (acos (m22 U))) (Rz r2)).
Proof.
  rewrite u_to_euler_eq. destruct (euler_raw U) as [[r1 r2]|]; [|discriminate]. intros [= <-]. exists r1, r2.
  cbn [vx vy vz fst snd]. rewrite laue_euler_comp, !Rz_wrap_pos. auto.
Qed.

Definition not_gimbal (U : M3) : Prop :=
  1 / 100000000 <= Rabs (acos (m22 U)) /\ 1 / 100000000 <= Rabs (acos (m22 U) - PI).

Lemma euler_raw_generic U : not_gimbal U ->
  euler_raw U = match laue_arctan2 (m02 U) (- m12 U), laue_arctan2 (m20 U) (m21 U) with
                | Some r1, Some r2 => Some (r1, r2)
                | _, _ => None
                end.
Proof. intros [G1 G2]. unfold euler_raw. destruct (Rlt_dec _ _); [lra|]. destruct (Rlt_dec _ _); [lra|]. reflexivity. Qed.

Theorem euler_range_half_open U e : laue_u_to_euler U = Some e ->
  0 <= vx e < 2 * PI /\ 0 <= vy e <= PI /\ 0 <= vz e < 2 * PI.
Proof.
  intros H. destruct (u_to_euler_inv U e H) as (r1 & r2 & E & -> & _). cbn [vx vy vz].
  pose proof (acos_bound (m22 U)) as A.
  assert (B : - PI < r1 <= PI /\ - PI < r2 <= PI).
  { unfold euler_raw in E.
    repeat match type of E with
    | context [laue_arctan2 ?y ?x] => let R := fresh "R" in destruct (laue_arctan2 y x) eqn:R; [apply arctan2_range in R | discriminate]
    | context [if ?c then _ else _] => destruct c
    end; injection E as <- <-; lra. }
  destruct B as [B1 B2]. apply wrap_pos_range in B1, B2. lra.
Qed.

Theorem euler_range U e : laue_u_to_euler U = Some e ->
  0 <= vx e <= 2 * PI /\ 0 <= vy e <= PI /\ 0 <= vz e <= 2 * PI.
Proof. intros H. destruct (euler_range_half_open U e H) as (A & B & C). lra. Qed.

(* a rotation whose last row and column are not the axis is determined by them: each of the other two rows solves two linear
   equations (orthogonality to the last row, one cofactor) of determinant U20^2 + U21^2 *)
Lemma rot_determined U V : is_rot U -> is_rot V -> m22 U * m22 U < 1 ->
  m02 U = m02 V -> m12 U = m12 V -> m20 U = m20 V -> m21 U = m21 V -> m22 U = m22 V -> U = V.
Proof.
  intros HU HV Hi. pose proof (rot_UUt U HU) as TU. pose proof (rot_UUt V HV) as TV.
  pose proof (rot_madj U HU) as AU. pose proof (rot_madj V HV) as AV. destruct (rot_rows_unit U HU) as (_ & _ & R2).
  destruct U as [a b c d e f g h i], V as [a' b' c' d' e' f' g' h' i'].
  unfold madj, mtrans, mmul, mI in *; cbn [m00 m01 m02 m10 m11 m12 m20 m21 m22] in *. intros <- <- <- <- <-.
  injection TU as _ _ T02 _ _ T12 _ _ _. injection TV as _ _ T02' _ _ T12' _ _ _.
  injection AU as _ _ _ _ _ _ A6 A7 _. injection AV as _ _ _ _ _ _ A6' A7' _.
  assert (N : g * g + h * h <> 0) by lra.
  destruct (lin2_unique g h a b a' b' N) as [-> ->]; [lra | lra |].
  destruct (lin2_unique g h d e d' e' N) as [-> ->]; [lra | lra |]. reflexivity.
Qed.

(* the entries of euler_to_u from which u_to_euler reads the angles back *)
Lemma euler_entries p1 P p2 : let U := laue_euler_to_u p1 P p2 in
  m22 U = cos P /\ m02 U = sin P * sin p1 /\ - m12 U = sin P * cos p1 /\ m20 U = sin P * sin p2 /\ m21 U = sin P * cos p2.
Proof. unfold laue_euler_to_u; cbv zeta; cbn. repeat split; ring. Qed.

(* the generic case: PHI = acos U22 with sin PHI = s > 0; phi1 = atan2(U02, -U12), phi2 = atan2(U20, U21): the product has the
   last row and column of U *)
Lemma euler_main U : is_rot U -> (m12 U <> 0 \/ m02 U <> 0) ->
  mmul (Rz (atan2 (m02 U) (- m12 U))) (mmul (Rx (acos (m22 U))) (Rz (atan2 (m20 U) (m21 U)))) = U.
Proof.
  intros HR Hnz. destruct (rot_rows_unit U HR) as (_ & _ & R2). destruct (rot_cols_unit U HR) as (_ & _ & C2).
  assert (Hpos : 0 < 1 - m22 U * m22 U) by (destruct Hnz; nra).
  set (s := sqrt (1 - m22 U * m22 U)).
  assert (Hs : s * s = 1 - m22 U * m22 U) by (apply sqrt_sqrt; lra).
  assert (Hs0 : 0 < s) by (apply sqrt_lt_R0; exact Hpos).
  assert (Hi : -1 <= m22 U <= 1) by nra.
  rewrite <- laue_euler_comp. symmetry.
  destruct (euler_entries (atan2 (m02 U) (- m12 U)) (acos (m22 U)) (atan2 (m20 U) (m21 U))) as (E22 & E02 & E12 & E20 & E21).
  rewrite cos_acos in E22 by lra. rewrite sin_acos in E02, E12, E20, E21 by lra.
  rewrite (sin_atan2_r _ _ s) in E02 by lra. rewrite (cos_atan2_r _ _ s) in E12 by lra.
  rewrite (sin_atan2_r _ _ s) in E20 by lra. rewrite (cos_atan2_r _ _ s) in E21 by lra.
  assert (K : forall x, s * (x / s) = x) by (intro; field; lra). rewrite K in E02, E12, E20, E21.
  apply rot_determined; [exact HR | apply laue_euler_rot | lra ..].
Qed.

Lemma u_to_euler_generic U : not_gimbal U -> generic (m02 U) (- m12 U) -> generic (m20 U) (m21 U) ->
  laue_u_to_euler U = Some (mkV3 (wrap_pos (atan2 (m02 U) (- m12 U))) (acos (m22 U)) (wrap_pos (atan2 (m20 U) (m21 U)))).
Proof.
  intros NG Ga Gb. rewrite u_to_euler_eq, (euler_raw_generic U NG), (arctan2_generic _ _ Ga), (arctan2_generic _ _ Gb). reflexivity.
Qed.

Theorem euler_exact U : is_rot U -> not_gimbal U -> generic (m02 U) (- m12 U) -> generic (m20 U) (m21 U) ->
  exists e, laue_u_to_euler U = Some e /\ laue_euler_to_u (vx e) (vy e) (vz e) = U.
Proof.
  intros HR NG Ga Gb. eexists. split; [apply u_to_euler_generic; assumption|].
  cbn [vx vy vz]. rewrite laue_euler_comp, !Rz_wrap_pos. apply (euler_main U HR).
  destruct Ga as [[N|N] _]; [left; lra | right; exact N].
Qed.

(* the other direction: angles in the open generic region are returned as given *)
Theorem euler_of_angles p1 P p2 : 0 <= p1 < 2 * PI -> 0 <= p2 < 2 * PI -> 0 < P < PI ->
  let U := laue_euler_to_u p1 P p2 in
  not_gimbal U -> generic (m02 U) (- m12 U) -> generic (m20 U) (m21 U) ->
  laue_u_to_euler U = Some (mkV3 p1 P p2).
Proof.
  intros H1 H2 HP U NG Ga Gb. rewrite (u_to_euler_generic U NG Ga Gb). subst U.
  destruct (euler_entries p1 P p2) as (-> & -> & -> & -> & ->).
  assert (SP : 0 < sin P) by (apply sin_gt_0; lra).
  rewrite acos_cos, !wrap_pos_atan2 by lra. reflexivity.
Qed.

(* non-vacuity: the rotation with Euler angles (1, 1, 1) is in the generic region *)
Example euler_111_generic : let U := laue_euler_to_u 1 1 1 in is_rot U /\ not_gimbal U /\ generic (m02 U) (- m12 U) /\ generic (m20 U) (m21 U).
Proof.
  intros U. split; [apply laue_euler_rot|].
  destruct (euler_entries 1 1 1) as (E22 & E02 & E12 & E20 & E21). fold U in E22, E02, E12, E20, E21.
  (* 3 < pi <= 4, so pi/6 < 1 < pi/3: sin 1 > sin (pi/6) = 1/2 and cos 1 > cos (pi/3) = 1/2 *)
  pose proof PI2_3_2 as P3. pose proof PI_4 as P4.
  assert (S1 : 1 / 2 < sin 1) by (rewrite <- sin_PI6; apply sin_increasing_1; lra).
  assert (C1 : 1 / 2 < cos 1) by (rewrite <- cos_PI3; apply cos_decreasing_1; lra).
  pose proof (SIN_bound 1) as [_ S2]. pose proof (COS_bound 1) as [_ C2].
  assert (B1 : 1 / 4 < sin 1 * sin 1 <= 1) by nra.
  assert (B2 : 1 / 4 < sin 1 * cos 1 <= 1) by nra.
  split; [|split].
  - unfold not_gimbal. rewrite E22, acos_cos by lra. split; unfold Rabs; destruct (Rcase_abs _); lra.
  - unfold generic. rewrite E02, E12. unfold Rmax, Rabs. destruct (Rcase_abs _), (Rcase_abs _), (Rle_dec _ _); lra.
  - unfold generic. rewrite E20, E21. unfold Rmax, Rabs. destruct (Rcase_abs _), (Rcase_abs _), (Rle_dec _ _); lra.
Qed.
