(* C14 (rotation constructors, u_to_euler, find_omega_wedge): the generated tools definitions are the generated laue definitions *)
From XV Require Import Gen_laue Gen_tools.

Lemma tl_euler_to_u a b c : tools_euler_to_u a b c = laue_euler_to_u a b c.
Proof. reflexivity. Qed.
Lemma tl_form_omega_mat w : tools_form_omega_mat w = laue_form_omega_mat w.
Proof. reflexivity. Qed.
Lemma tl_form_omega_mat_general w c d : tools_form_omega_mat_general w c d = laue_form_omega_mat_general w c d.
Proof. reflexivity. Qed.
Lemma tl_quart_to_omega w c d : tools_quart_to_omega w c d = laue_quart_to_omega w c d.
Proof. reflexivity. Qed.
Lemma tl_detect_tilt a b c : tools_detect_tilt a b c = laue_detect_tilt a b c.
Proof. reflexivity. Qed.
Lemma tl_rod_to_u r : tools_rod_to_u r = laue_rod_to_u r.
Proof. reflexivity. Qed.
Lemma tl_u_to_rod U : tools_u_to_rod U = laue_u_to_rod U.
Proof. reflexivity. Qed.
Lemma tl_arctan2 y x : tools_arctan2 y x = laue_arctan2 y x.
Proof. reflexivity. Qed.
Lemma tl_u_to_euler U : tools_u_to_euler U = laue_u_to_euler U.
Proof. reflexivity. Qed.
Lemma tl_find_omega_wedge g tth w : tools_find_omega_wedge g tth w = laue_find_omega_wedge g tth w.
Proof. reflexivity. Qed.
