(* C02 for xfab.laue: U, B, UBI conversions (generated definitions) *)
From Coq Require Import Reals Psatz.
From XV Require Import Mat3 Cell Gen_laue P01_laue.
Open Scope R_scope.

(* recognition: the generated entry-wise code is the matrix expression it spells out *)
Lemma laue_u_to_ubi_def U c : laue_u_to_ubi U c = minv (mmul U (laue_form_b_mat c)).
Proof. reflexivity. Qed.
Lemma laue_ubi_to_cell_def A : laue_ubi_to_cell A = laue_a_to_cell (mtrans A).
Proof. reflexivity. Qed.
Lemma laue_ubi_to_u_def A : laue_ubi_to_u A = mtrans (mmul (laue_form_b_mat (laue_ubi_to_cell A)) A).
Proof. reflexivity. Qed.

Lemma UB_det U c : is_rot U -> valid_cell c -> mdet (mmul U (laue_form_b_mat c)) <> 0.
Proof. intros HU H. rewrite rot_mmul_det by exact HU. apply Rgt_not_eq, laue_B_det_pos, H. Qed.

(* UBI . (U B h) = h : the rows of UBI are the real-space lattice vectors *)
Lemma laue_ubi_lattice U c h : is_rot U -> valid_cell c ->
  mvmul (laue_u_to_ubi U c) (mvmul (mmul U (laue_form_b_mat c)) h) = h.
Proof.
  intros HU Hc. rewrite laue_u_to_ubi_def, <- mvmul_mmul, minv_l by (apply UB_det; assumption). apply mvmul_I.
Qed.

(* the cell read off a UBI matrix (U B)^-1 has metric (B'B)^-1, whatever the rotation *)
Lemma laue_ubi_cell U B : is_rot U -> mdet B <> 0 ->
  valid_cell (laue_ubi_to_cell (minv (mmul U B))) /\
  metric (laue_ubi_to_cell (minv (mmul U B))) = minv (mmul (mtrans B) B).
Proof.
  intros HU DB. rewrite laue_ubi_to_cell_def.
  destruct (laue_a_to_cell_valid (mtrans (minv (mmul U B)))) as [V M].
  { rewrite mdet_mtrans, mdet_minv; rewrite rot_mmul_det by exact HU; [apply Rinv_neq_0_compat|]; exact DB. }
  split; [exact V|]. rewrite M, mtrans_invol. apply minv_rot_gram; assumption.
Qed.

Lemma laue_ubi_to_cell_inv U c : is_rot U -> valid_cell c -> laue_ubi_to_cell (laue_u_to_ubi U c) = c.
Proof.
  intros HU Hc. rewrite laue_u_to_ubi_def.
  destruct (laue_ubi_cell U (laue_form_b_mat c) HU) as [V M]; [apply Rgt_not_eq, laue_B_det_pos, Hc|].
  apply metric_inj; [exact V | exact Hc |].
  rewrite M, laue_BtB_inv by exact Hc. apply minv_invol, Rgt_not_eq, metric_det_pos, Hc.
Qed.

(* the same for any upper triangular B with positive diagonal in place of form_b_mat c (a strained B, say): the cell read off
   (U B)^-1 has B matrix B, and U comes back *)
Lemma laue_form_b_of_ubi U B : is_rot U -> upper_posdiag B ->
  laue_form_b_mat (laue_ubi_to_cell (minv (mmul U B))) = B.
Proof.
  intros HU HB. pose proof (upper_posdiag_det B HB) as DB.
  destruct (laue_ubi_cell U B HU) as [V M]; [lra|].
  apply laue_B_unique; [exact V | exact HB |].
  rewrite M. apply minv_r. rewrite mdet_mmul, mdet_mtrans. nra.
Qed.

Lemma laue_ubi_to_u_general U B : is_rot U -> upper_posdiag B -> laue_ubi_to_u (minv (mmul U B)) = U.
Proof.
  intros HU HB. pose proof (upper_posdiag_det B HB) as DB.
  rewrite laue_ubi_to_u_def, laue_form_b_of_ubi, minv_rot_mmul by (first [assumption | lra]).
  rewrite <- mmul_assoc, minv_r, mmul_I_l by lra. apply mtrans_invol.
Qed.

Lemma laue_ubi_to_u_inv U c : is_rot U -> valid_cell c -> laue_ubi_to_u (laue_u_to_ubi U c) = U.
Proof. intros HU Hc. apply laue_ubi_to_u_general; [exact HU | apply laue_B_upper_posdiag; exact Hc]. Qed.

(* numpy.linalg.qr enters ub_to_u_b as an unspecified function qr (Section Split); this is all that is assumed of its result *)
Definition qr_spec (UB Q Rm : M3) : Prop := is_orth Q /\ upper Rm /\ mmul Q Rm = UB.

(* an orthogonal U with U B = UB, B of positive diagonal and det UB > 0, is a proper rotation: (det U)^2 = 1 and
   det U det B = det UB > 0 *)
Lemma ub_split_ok UB U B : 0 < mdet UB -> mmul U B = UB -> is_orth U -> upper_posdiag B ->
  mmul U B = UB /\ is_rot U /\ upper_posdiag B.
Proof.
  intros HD E HO HB. split; [exact E|]. split; [|exact HB]. split; [exact HO|].
  pose proof (upper_posdiag_det B HB) as DB. rewrite <- E, mdet_mmul in HD.
  assert (Q : mdet U * mdet U = 1) by (rewrite <- (mdet_mtrans U) at 1; rewrite <- mdet_mmul, HO; apply mdet_I).
  nra.
Qed.

Section Split.
Variable qr : M3 -> M3 * M3.

Lemma laue_ub_split UB : qr_spec UB (fst (qr UB)) (snd (qr UB)) -> 0 < mdet UB ->
  let UBs := laue_ub_to_u_b qr UB in
  mmul (fst UBs) (snd UBs) = UB /\ is_rot (fst UBs) /\ upper_posdiag (snd UBs).
Proof.
  (* the code flips the sign of column i of Q and of row i of R wherever r_ii < 0: U = Q D, B = D R with D = diag (sign r_ii),
     so U B = Q R, U is orthogonal and B has a positive diagonal; the generated code spells out the eight sign patterns, hence
     the eight cases below, each with the same three obligations of ub_split_ok *)
  intros (HO & HU & HP) HD. unfold laue_ub_to_u_b; cbv zeta.
  destruct (qr UB) as [Q Rm]. cbn [fst snd] in *.
  assert (NZ : m00 Rm <> 0 /\ m11 Rm <> 0 /\ m22 Rm <> 0).
  { rewrite <- HP, mdet_mmul, (upper_det Rm HU) in HD.
    repeat split; intros Z; rewrite Z, ?Rmult_0_l, ?Rmult_0_r in HD; lra. }
  destruct Q as [q00 q01 q02 q10 q11 q12 q20 q21 q22], Rm as [r00 r01 r02 r10 r11 r12 r20 r21 r22].
  destruct NZ as (N0 & N1 & N2), HU as (U1 & U2 & U3). cbn [m00 m01 m02 m10 m11 m12 m20 m21 m22] in *. subst r10 r20 r21.
  injection HO as E0 E1 E2 E3 E4 E5 E6 E7 E8.
  destruct (Rlt_dec r00 0) as [L0|L0]; destruct (Rlt_dec r11 0) as [L1|L1]; destruct (Rlt_dec r22 0) as [L2|L2];
    cbn [fst snd];
    (apply ub_split_ok;
     [ exact HD
     | rewrite <- HP; unfold mmul; cbn; f_equal; ring
     | unfold is_orth, mmul, mtrans, mI; cbn; f_equal; lra
     | unfold upper_posdiag, upper; cbn; repeat split; lra ]).
Qed.
Lemma laue_ub_split_unique UB U B : qr_spec UB (fst (qr UB)) (snd (qr UB)) -> 0 < mdet UB ->
  is_rot U -> upper_posdiag B -> mmul U B = UB -> laue_ub_to_u_b qr UB = (U, B).
Proof.
  intros HQ HD HU HB E. destruct (laue_ub_split UB HQ HD) as (E' & HU' & HB').
  destruct (laue_ub_to_u_b qr UB) as [U' B']. cbn [fst snd] in *.
  destruct (qr_unique U' B' U B HU' HU HB' HB) as [-> ->]; [congruence | reflexivity].
Qed.

Lemma laue_ub_to_u_b_mmul U B : is_rot U -> upper_posdiag B ->
  qr_spec (mmul U B) (fst (qr (mmul U B))) (snd (qr (mmul U B))) -> laue_ub_to_u_b qr (mmul U B) = (U, B).
Proof.
  intros HU HB HQ. apply laue_ub_split_unique; try assumption; [|reflexivity].
  rewrite rot_mmul_det by exact HU. apply upper_posdiag_det, HB.
Qed.

Lemma laue_ubi_to_u_b_def A : laue_ubi_to_u_b qr A = laue_ub_to_u_b qr (minv A).
Proof. unfold laue_ubi_to_u_b; cbv zeta. destruct (laue_ub_to_u_b qr (minv A)); reflexivity. Qed.

Lemma laue_ubi_to_u_b_inv U c : is_rot U -> valid_cell c ->
  let UB := mmul U (laue_form_b_mat c) in
  qr_spec UB (fst (qr UB)) (snd (qr UB)) ->
  laue_ubi_to_u_b qr (laue_u_to_ubi U c) = (U, laue_form_b_mat c).
Proof.
  intros HU Hc UB HQ. rewrite laue_ubi_to_u_b_def, laue_u_to_ubi_def, minv_invol by (apply UB_det; assumption).
  apply laue_ub_to_u_b_mmul; [exact HU | apply laue_B_upper_posdiag; exact Hc | exact HQ].
Qed.
End Split.

Lemma laue_ubi_to_rod_def U c : is_rot U -> valid_cell c -> laue_ubi_to_rod (laue_u_to_ubi U c) = laue_u_to_rod U.
Proof.
  intros HU Hc. unfold laue_ubi_to_rod; cbv zeta. rewrite laue_ubi_to_u_inv by assumption.
  destruct (laue_u_to_rod U); reflexivity.
Qed.
