(* C18: what reduce_cell returns, algebraically.  reduce_cell stores three lattice vectors v_i = A n_i (n_i integer) as the ROWS of a matrix M
   and returns a_to_cell(M), which takes the COLUMNS of its argument as basis vectors. *)
From Coq Require Import Reals Psatz.
From XV Require Import Mat3 Cell Gen_laue Gen_tools P01_laue.
Open Scope R_scope.

(* rows of M are A n_i : M = (A N)' where the columns of N are the integer index triples *)
Definition rows_of (A N : M3) : M3 := mtrans (mmul A N).

(* the metric of the returned cell is M'M (basis = columns of M) ... *)
Theorem reduce_metric_actual A N : mdet (rows_of A N) <> 0 ->
  valid_cell (laue_a_to_cell (rows_of A N)) /\
  metric (laue_a_to_cell (rows_of A N)) = mmul (mtrans (rows_of A N)) (rows_of A N).
Proof. intros H. apply laue_a_to_cell_valid; exact H. Qed.

(* ... whereas the lattice spanned by the selected vectors has metric M M' = N' (A'A) N : the input metric changed by the integer matrix N *)
Theorem selected_basis_metric A N : mmul (rows_of A N) (mtrans (rows_of A N)) = mmul (mtrans N) (mmul (mmul (mtrans A) A) N).
Proof. unfold rows_of. rewrite mtrans_invol, mtrans_mmul, !mmul_assoc. reflexivity. Qed.

(* both have the same determinant: the returned cell has volume |det N| times the input volume (same volume iff N is unimodular) *)
Theorem reduce_volume A N :
  mdet (mmul (mtrans (rows_of A N)) (rows_of A N)) = (mdet N * mdet N) * mdet (mmul (mtrans A) A).
Proof. unfold rows_of. rewrite !mdet_mmul, !mdet_mtrans, !mdet_mmul. ring. Qed.

(* the two metrics coincide when M is symmetric or, more generally, normal; in general they differ: a rational witness *)
Definition Mw : M3 := mkM3 1 1 0 0 1 0 0 0 1.
Theorem rows_vs_columns_differ : mmul (mtrans Mw) Mw <> mmul Mw (mtrans Mw).
Proof. unfold Mw, mmul, mtrans; cbn. intro H. injection H as H0 _. lra. Qed.

Lemma tl_reduce_a_to_cell M : tools_a_to_cell M = laue_a_to_cell M.
Proof. reflexivity. Qed.
