(* C09: find_omega_quart (rotation about the tilted axis n = Rx(wx) Ry(wy) ez, built by quart_to_omega) *)
From Coq Require Import Reals Psatz.
From XV Require Import RealLib Mat3 OmegaSolve Gen_laue P03_laue P09_laue.
Open Scope R_scope.

Definition q_n0 (wx wy : R) := sin wy.
Definition q_n1 (wx wy : R) := - sin wx * cos wy.
Definition q_n2 (wx wy : R) := cos wx * cos wy.

Definition quart_a (gn : V3) (wx wy : R) :=
  vx gn * (1 - sin wy ^ 2) - vy gn * sin wy * q_n1 wx wy - vz gn * sin wy * q_n2 wx wy.
Definition quart_b (gn : V3) (wx wy : R) := vz gn * q_n1 wx wy - vy gn * q_n2 wx wy.
Definition quart_c (gn : V3) (wx wy : R) :=
  - (vx gn * vx gn + vy gn * vy gn + vz gn * vz gn) - vx gn * sin wy ^ 2 - vy gn * sin wy * q_n1 wx wy - vz gn * sin wy * q_n2 wx wy.

Definition omega_quart_model (gn : V3) (tth wx wy : R) : list R * list R :=
  solver_model gn tth (fun w => laue_quart_to_omega (w * 180 / PI) wx wy) (quart_a gn wx wy) (quart_b gn wx wy) (quart_c gn wx wy).

Lemma laue_quart_refines g tth wx wy :
  laue_find_omega_quart g tth wx wy =
  let gn := normalise_to tth g in
  if Rlt_dec (Rabs ((vx gn * vx gn + vy gn * vy gn + vz gn * vz gn) - sin (tth / 2) ^ 2)) (1 / 1000000000)
  then Some (omega_quart_model gn tth wx wy) else None.
Proof. exact (solver_code_shape (normalise_to tth g) tth (fun w => laue_quart_to_omega (w * 180 / PI) wx wy) _ _ _ _ _). Qed.

Lemma quart_sinusoid gn wx wy :
  sinusoid gn (fun w => laue_quart_to_omega (w * 180 / PI) wx wy) (quart_a gn wx wy) (quart_b gn wx wy) (quart_c gn wx wy).
Proof.
  intros w. split; [apply laue_quart_rot|].
  rewrite laue_quart_comp. replace (w * 180 / PI * PI / 180) with w by (field; apply PI_neq0).
  destruct gn as [x y z]. unfold quart_a, quart_b, quart_c, q_n1, q_n2.
  assert (Hx : sin wx * sin wx = 1 - cos wx * cos wx) by (pose proof (sc1 wx); lra).
  assert (Hy : sin wy * sin wy = 1 - cos wy * cos wy) by (pose proof (sc1 wy); lra).
  mcbv. cbn [Rpow_def.pow].
  set (sx := sin wx) in *; set (cx := cos wx) in *; set (sy := sin wy) in *; set (cy := cos wy) in *.
  set (sw := sin w); set (cw := cos w). clearbody sx cx sy cy sw cw.
  ring [Hx Hy].
Qed.

Theorem laue_find_omega_quart_sound g tth wx wy oms etas :
  0 < tth < PI -> vx g * vx g + vy g * vy g + vz g * vz g <> 0 ->
  let gn := normalise_to tth g in
  quart_a gn wx wy * quart_a gn wx wy + quart_b gn wx wy * quart_b gn wx wy <> 0 ->
  laue_find_omega_quart g tth wx wy = Some (oms, etas) ->
  (forall w e, In (w, e) (combine oms etas) -> diffracts (laue_quart_to_omega (w * 180 / PI) wx wy) gn tth e) /\
  (forall w, In w oms -> - PI < w <= PI) /\
  (forall w, - PI < w <= PI -> vx (mvmul (laue_quart_to_omega (w * 180 / PI) wx wy) gn) = - (sin (tth / 2) * sin (tth / 2)) -> In w oms).
Proof.
  intros Ht Hg gn Hab E. rewrite laue_quart_refines in E. apply if_Some_inv in E.
  destruct (solver_model_sound gn tth _ _ _ _ Ht (normalise_length tth g Hg) (quart_sinusoid gn wx wy) Hab oms etas E) as (S & Rg & C & _).
  auto.
Qed.
