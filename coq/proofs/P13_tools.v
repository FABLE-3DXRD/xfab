(* C13 for xfab.tools: the strain lemmas of P13_laue at B0 = tools_form_b_mat c *)
From Coq Require Import Reals.
From XV Require Import Mat3 Cell Gen_tools P01_tools P13_laue.
Open Scope R_scope.

Lemma tools_b_to_epsilon_def B c : tools_b_to_epsilon B c = sym_minus_I (mmul (tools_form_b_mat c) (minv B)).
Proof. exact (sym_minus_I_code (mmul (tools_form_b_mat c) (minv B))). Qed.

Lemma tools_epsilon_to_b_def eps c : tools_epsilon_to_b eps c = minv (Tmat (tools_form_b_mat c) eps).
Proof. reflexivity. Qed.

Lemma tools_eps_roundtrip eps c : valid_cell c -> strain_ok eps ->
  tools_b_to_epsilon (tools_epsilon_to_b eps c) c = eps.
Proof.
  intros Hc. rewrite tools_b_to_epsilon_def, tools_epsilon_to_b_def. apply strain_eps_roundtrip, tools_B_upper_posdiag, Hc.
Qed.

Lemma tools_zero_strain c : valid_cell c -> tools_epsilon_to_b (mkV6 0 0 0 0 0 0) c = tools_form_b_mat c.
Proof. intros Hc. rewrite tools_epsilon_to_b_def. apply strain_zero, tools_B_upper_posdiag, Hc. Qed.

Lemma tools_b_roundtrip B c : valid_cell c -> upper B -> mdet B <> 0 ->
  tools_epsilon_to_b (tools_b_to_epsilon B c) c = B.
Proof.
  intros Hc. rewrite tools_epsilon_to_b_def, tools_b_to_epsilon_def. apply strain_b_roundtrip, tools_B_upper_posdiag, Hc.
Qed.
