(* C05 / C06: sysabs vs operator extinction on the box and the segment tables (kernel computations); the traversal model: its three
   loops are one loop shape (gloop), which returns the concatenation of the rows of the steps it reaches (gloop_flat); what a segment
   lists is said once (segment_exact), all_segments concatenates (all_segments_flat), and soundness, absence of duplicates,
   completeness (P05_complete.v) and independence of `allowed` outside the shell (P05_box.v) are read off these; the boolean cone
   test is cone membership (region_iff_cone); orbit expansion. *)
From Coq Require Import ZArith List Bool Lia.
From XV Require Import SGroup HklModel Traverse Tab_segm Ast_laue Tab_sg_all Dedup SGFacts.
Import ListNotations.
Open Scope Z_scope.

Lemma segm_same : segm_tools = segm_laue.
Proof. vm_compute. reflexivity. Qed.

Lemma segm_all_found : forallb (fun s => match lookup_segm segm_laue (sg_laue s) (sg_choice s) with Some segs => unimodular_segs segs | None => false end) all_settings = true.
Proof. vm_compute. reflexivity. Qed.
Lemma setting_segs s : In s all_settings ->
  exists segs, lookup_segm segm_laue (sg_laue s) (sg_choice s) = Some segs /\ forall seg, In seg segs -> in_region seg (vec3 (nth 0 seg [])) = true.
Proof.
  intros Hs. pose proof (proj1 (forallb_forall _ _) segm_all_found s Hs) as H. cbv beta in H.
  destruct (lookup_segm segm_laue (sg_laue s) (sg_choice s)) as [segs|]; [|discriminate].
  exists segs. split; [reflexivity | exact (proj1 (forallb_forall _ _) H)].
Qed.

Lemma lookup_segm_in tab laue choice segs : lookup_segm tab laue choice = Some segs ->
  exists e, (In e tab /\ seg_matches laue choice e = true) /\ snd e = segs.
Proof.
  unfold lookup_segm. destruct (filter _ tab) as [|e0 r] eqn:F; [discriminate|]. intros E. injection E as <-.
  exists (last (e0 :: r) (String.EmptyString, None, [])). split; [|reflexivity].
  apply filter_In. rewrite F. apply last_in. discriminate.
Qed.

(* sysabs_ok filters the box down to the points in the cones of the setting's segment list and compares the two tests there.  The
   filter is most of the evaluation and depends on the setting only through its entry of the segment table, so the sweep runs it
   once per entry and compares on the settings that the entry matches *)
Definition au_box (segs : list (list (list Z))) (H : Z) : list hkl :=
  filter (fun h => existsb (fun seg => in_region seg h) segs && negb (hkl_eqb h (0, 0, 0))) (box H).
Definition sysabs_on (pts : list hkl) (s : sgrec) : bool :=
  match ops_of (sg_rot s) (sg_trans s) with
  | Some ops => forallb (fun h => Bool.eqb (ast_laue_sysabs (let '(x, y, z) := h in [x; y; z]) (sg_syscond s) (sg_csys s) (sg_choice s) =? 0)
                                         (negb (extinct ops h))) pts
  | None => false
  end.

Lemma forallb_filter {A} (p f : A -> bool) l : forallb (fun x => if p x then f x else true) l = forallb f (filter p l).
Proof. induction l as [|a l IH]; cbn; [reflexivity|]. destruct (p a); cbn; rewrite IH; reflexivity. Qed.

Lemma sysabs_ok_on s segs : lookup_segm segm_laue (sg_laue s) (sg_choice s) = Some segs ->
  sysabs_ok ast_laue_sysabs segm_laue 7 s = unimodular_segs segs && sysabs_on (au_box segs 7) s.
Proof.
  intros E. unfold sysabs_ok, sysabs_on, au_box. rewrite E. destruct (ops_of _ _); [|symmetry; apply andb_false_r].
  rewrite forallb_filter. reflexivity.
Qed.

Lemma sysabs_entries : forallb (fun e => let pts := au_box (snd e) 7 in
  forallb (fun s => if seg_matches (sg_laue s) (sg_choice s) e then sysabs_on pts s else true) all_settings) segm_laue = true.
Proof. vm_compute. reflexivity. Qed.

Lemma sysabs_all : forallb (sysabs_ok ast_laue_sysabs segm_laue 7) all_settings = true.
Proof.
  apply forallb_forall. intros s Hs. destruct (setting_segs s Hs) as (segs & E & U).
  destruct (lookup_segm_in _ _ _ _ E) as (e & [He M] & <-).
  pose proof (proj1 (forallb_forall _ _) (proj1 (forallb_forall _ _) sysabs_entries e He) s Hs) as T. cbv beta in T. rewrite M in T.
  rewrite (sysabs_ok_on s _ E), T. apply andb_true_intro. split; [apply forallb_forall; exact U | reflexivity].
Qed.

Definition hscale (k : Z) (d : hkl) : hkl := let '(x, y, z) := d in (k * x, k * y, k * z).
Lemma hadd_assoc a b c : hadd (hadd a b) c = hadd a (hadd b c).
Proof. destruct a as [[? ?] ?], b as [[? ?] ?], c as [[? ?] ?]. cbn. f_equal; [f_equal|]; ring. Qed.
Lemma hadd_0_r a d : hadd a (hscale 0 d) = a.
Proof. destruct a as [[? ?] ?], d as [[? ?] ?]. cbn. f_equal; [f_equal|]; ring. Qed.
Lemma hscale_0 d : hadd (0, 0, 0) (hscale 0 d) = (0, 0, 0).
Proof. apply hadd_0_r. Qed.
Lemma hscale_succ a d k : hadd (hadd a d) (hscale k d) = hadd a (hscale (k + 1) d).
Proof. destruct a as [[? ?] ?], d as [[? ?] ?]. cbn. f_equal; [f_equal|]; ring. Qed.

Lemma nodup_app {A} (l1 l2 : list A) : NoDup l1 -> NoDup l2 -> (forall x, In x l1 -> In x l2 -> False) -> NoDup (l1 ++ l2).
Proof.
  induction l1 as [|a l1 IH]; intros N1 N2 D; [exact N2|]. inversion N1 as [|? ? Ha N1']; subst. cbn. constructor.
  - rewrite in_app_iff. intros [H|H]; [exact (Ha H) | exact (D a (or_introl eq_refl) H)].
  - apply IH; [exact N1' | exact N2 | intros x H1 H2; exact (D x (or_intror H1) H2)].
Qed.

Lemma flat_map_nodup {A B} (f : A -> list B) l : NoDup l -> (forall x, In x l -> NoDup (f x)) ->
  (forall x x' y, In x l -> In x' l -> In y (f x) -> In y (f x') -> x = x') -> NoDup (flat_map f l).
Proof.
  induction l as [|a l IH]; intros N Hf Hd; [constructor|]. inversion N as [|? ? Ha N']; subst. cbn.
  apply nodup_app.
  - apply Hf. left; reflexivity.
  - apply IH; [exact N' | intros x Hx; apply Hf; right; exact Hx | intros x x' y Hx Hx'; apply Hd; right; assumption].
  - intros y H1 H2. apply in_flat_map in H2. destruct H2 as (x' & Hx' & Hy).
    assert (a = x') by (apply (Hd a x' y); [left; reflexivity | right; exact Hx' | exact H1 | exact Hy]). subst. exact (Ha Hx').
Qed.

Section Loop.
Variable G : metricZ.
Variable Tterm : Z.
Notation q := (qform G).

(* run [inner] at b, b + d, b + 2 d, ... for as long as the next point has q <= Tterm: the shape of hloop, kloop and lloop *)
Fixpoint gloop {A} (inner : hkl -> option (list A)) (d : hkl) (fuel : nat) (b : hkl) : option (list A) :=
  match fuel with
  | O => None
  | S f => match inner b with
           | None => None
           | Some row => if q (hadd b d) <=? Tterm then option_map (app row) (gloop inner d f (hadd b d)) else Some row
           end
  end.

Definition step (b d : hkl) (n : nat) : hkl := hadd b (hscale (Z.of_nat n) d).
(* the loop started at b gets as far as its n-th step *)
Definition reach (b d : hkl) (n : nat) : Prop := forall i, (i < n)%nat -> q (step b d (S i)) <= Tterm.

Lemma step_0 b d : step b d 0 = b.
Proof. apply hadd_0_r. Qed.
Lemma step_S b d n : step b d (S n) = step (hadd b d) d n.
Proof. unfold step. rewrite hscale_succ. f_equal. f_equal. lia. Qed.
Lemma reach_S b d n : reach b d (S n) <-> q (hadd b d) <= Tterm /\ reach (hadd b d) d n.
Proof.
  unfold reach. split.
  - intros H. split; [rewrite <- (step_0 (hadd b d) d), <- step_S; apply H; lia|]. intros i Hi. rewrite <- step_S. apply H. lia.
  - intros [H0 H] [|i] Hi; rewrite step_S; [rewrite step_0; exact H0 | apply H; lia].
Qed.

Section Inner.
Context {A : Type}.
Variable inner : hkl -> option (list A).
Variable d : hkl.

Lemma gloop_flat fuel : forall b l, gloop inner d fuel b = Some l ->
  exists n f, (forall i, reach b d i <-> (i <= n)%nat) /\ (forall i, (i <= n)%nat -> inner (step b d i) = Some (f i)) /\
              l = flat_map f (seq 0 (S n)).
Proof.
  induction fuel as [|fu IH]; intros b l H; cbn in H; [discriminate|].
  destruct (inner b) as [row|] eqn:Eb; [|discriminate]. rewrite <- (step_0 b d) in Eb.
  destruct (q (hadd b d) <=? Tterm) eqn:Eq.
  - destruct (gloop inner d fu (hadd b d)) as [r|] eqn:E; [|discriminate]. injection H as <-.
    destruct (IH _ _ E) as (n & f & R & F & ->). exists (S n), (fun i => match i with O => row | S i => f i end). split; [|split].
    + intros [|i]; [split; [lia | intros _ j Hj; lia]|]. rewrite reach_S, R, Z.leb_le in *. lia.
    + intros [|i] Hi; [exact Eb|]. rewrite step_S. apply F. lia.
    + change (seq 0 (S (S n))) with (0%nat :: seq 1 (S n)). cbn [flat_map]. f_equal.
      rewrite <- seq_shift, (flat_map_concat_map _ (map S _)), map_map, <- flat_map_concat_map. reflexivity.
  - injection H as <-. exists 0%nat, (fun _ => row). split; [|split].
    + intros [|i]; [split; [lia | intros _ j Hj; lia]|]. rewrite reach_S. split; [intros [Q _]; apply Z.leb_le in Q; congruence | lia].
    + intros i Hi. replace i with 0%nat by lia. exact Eb.
    + cbn. rewrite app_nil_r. reflexivity.
Qed.

Lemma gloop_In fuel b l : gloop inner d fuel b = Some l ->
  forall x, In x l -> exists n row, reach b d n /\ inner (step b d n) = Some row /\ In x row.
Proof.
  intros H x Hx. destruct (gloop_flat _ _ _ H) as (n & f & R & F & ->). apply in_flat_map in Hx. destruct Hx as (i & Hi & Hx).
  apply in_seq in Hi. exists i, (f i). split; [apply R; lia | split; [apply F; lia | exact Hx]].
Qed.

Lemma gloop_reach fuel b l : gloop inner d fuel b = Some l ->
  forall n, reach b d n -> exists row, inner (step b d n) = Some row /\ incl row l.
Proof.
  intros H n' Rn. destruct (gloop_flat _ _ _ H) as (n & f & R & F & ->). apply R in Rn. exists (f n'). split; [exact (F n' Rn)|].
  intros x Hx. apply in_flat_map. exists n'. split; [apply in_seq; lia | exact Hx].
Qed.

(* P n marks the elements of the row of step n and determines n; the conclusion hands the marks on to the loop around this one *)
Lemma gloop_NoDup (P : nat -> A -> Prop) fuel b l : gloop inner d fuel b = Some l ->
  (forall n row, inner (step b d n) = Some row -> NoDup row /\ forall x, In x row -> P n x) ->
  (forall n n' x, P n x -> P n' x -> n = n') ->
  NoDup l /\ forall x, In x l -> exists n, P n x.
Proof.
  intros H HP Dis. destruct (gloop_flat _ _ _ H) as (n & f & R & F & ->).
  assert (F' : forall i, In i (seq 0 (S n)) -> NoDup (f i) /\ forall x, In x (f i) -> P i x) by (intros i Hi; apply in_seq in Hi; apply HP, F; lia).
  split.
  - apply flat_map_nodup; [apply seq_NoDup | intros i Hi; exact (proj1 (F' i Hi)) |].
    intros i i' x Hi Hi' X X'. exact (Dis i i' x (proj2 (F' i Hi) x X) (proj2 (F' i' Hi') x X')).
  - intros x Hx. apply in_flat_map in Hx. destruct Hx as (i & Hi & Hx). exists i. exact (proj2 (F' i Hi) x Hx).
Qed.
End Inner.

Lemma gloop_ext {A} (inner inner' : hkl -> option (list A)) d fuel : (forall h, inner h = inner' h) ->
  forall b, gloop inner d fuel b = gloop inner' d fuel b.
Proof. intros E. induction fuel as [|f IH]; intros b; cbn; [reflexivity|]. rewrite E, IH. reflexivity. Qed.

Lemma gloop_filter {A} (p : A -> bool) inner d fuel : forall b,
  gloop (fun h => option_map (filter p) (inner h)) d fuel b = option_map (filter p) (gloop inner d fuel b).
Proof.
  induction fuel as [|f IH]; intros b; cbn; [reflexivity|]. destruct (inner b) as [row|]; cbn; [|reflexivity].
  destruct (q (hadd b d) <=? Tterm); [|reflexivity]. rewrite IH.
  destruct (gloop inner d f (hadd b d)); cbn; [rewrite filter_app|]; reflexivity.
Qed.
End Loop.
Arguments gloop_In {G Tterm A inner d fuel b l}.
Arguments gloop_reach {G Tterm A inner d fuel b l}.
Arguments gloop_NoDup {G Tterm A inner d} P {fuel b l}.

Definition det3 (d1 d2 d3 : hkl) : Z :=
  let '(a1, a2, a3) := d1 in let '(b1, b2, b3) := d2 in let '(c1, c2, c3) := d3 in
  a1 * (b2 * c3 - b3 * c2) - a2 * (b1 * c3 - b3 * c1) + a3 * (b1 * c2 - b2 * c1).
Definition lin (c d1 d2 d3 t : hkl) : hkl :=
  let '(a, k, m) := t in hadd (hadd (hadd c (hscale m d3)) (hscale k d2)) (hscale a d1).
(* det3 times the coordinates of x - c; the same expressions as in HklModel.in_region *)
Definition cof (c d1 d2 d3 x : hkl) : hkl :=
  let '(sx, sy, sz) := c in let '(a1, a2, a3) := d1 in let '(b1, b2, b3) := d2 in let '(c1, c2, c3) := d3 in let '(x, y, z) := x in
  let '(vx, vy, vz) := (x - sx, y - sy, z - sz) in
  (vx * (b2 * c3 - b3 * c2) - vy * (b1 * c3 - b3 * c1) + vz * (b1 * c2 - b2 * c1),
   a1 * (vy * c3 - vz * c2) - a2 * (vx * c3 - vz * c1) + a3 * (vx * c2 - vy * c1),
   a1 * (b2 * vz - b3 * vy) - a2 * (b1 * vz - b3 * vx) + a3 * (b1 * vy - b2 * vx)).

Lemma cof_lin c d1 d2 d3 t : cof c d1 d2 d3 (lin c d1 d2 d3 t) = hscale (det3 d1 d2 d3) t.
Proof.
  destruct c as [[sx sy] sz], d1 as [[a1 a2] a3], d2 as [[b1 b2] b3], d3 as [[c1 c2] c3], t as [[a k] m].
  unfold cof, lin, hadd, hscale, det3. f_equal; [f_equal|]; ring.
Qed.
Lemma lin_cof c d1 d2 d3 x : det3 d1 d2 d3 * det3 d1 d2 d3 = 1 -> lin c d1 d2 d3 (hscale (det3 d1 d2 d3) (cof c d1 d2 d3 x)) = x.
Proof.
  destruct c as [[sx sy] sz], d1 as [[a1 a2] a3], d2 as [[b1 b2] b3], d3 as [[c1 c2] c3], x as [[x y] z].
  unfold cof, lin, hadd, hscale. set (D := det3 _ _ _). intros HD. f_equal; [f_equal|].
  - transitivity (sx + D * D * (x - sx)); [unfold D, det3; ring | rewrite HD; ring].
  - transitivity (sy + D * D * (y - sy)); [unfold D, det3; ring | rewrite HD; ring].
  - transitivity (sz + D * D * (z - sz)); [unfold D, det3; ring | rewrite HD; ring].
Qed.

Definition in_cone (seg : list (list Z)) (x : hkl) : Prop :=
  exists a k m, 0 <= a /\ 0 <= k /\ 0 <= m /\
    x = hadd (hadd (hadd (vec3 (nth 0 seg [])) (hscale m (vec3 (nth 3 seg [])))) (hscale k (vec3 (nth 2 seg [])))) (hscale a (vec3 (nth 1 seg []))).

Lemma hscale_hscale k d : k * k = 1 -> hscale k (hscale k d) = d.
Proof. destruct d as [[x y] z]. intros H. cbn. rewrite !Z.mul_assoc, H. f_equal; [f_equal|]; ring. Qed.

Lemma in_region_spec seg x :
  let c := vec3 (nth 0 seg []) in let d1 := vec3 (nth 1 seg []) in let d2 := vec3 (nth 2 seg []) in let d3 := vec3 (nth 3 seg []) in
  in_region seg x = true <->
  det3 d1 d2 d3 * det3 d1 d2 d3 = 1 /\ exists a k m, 0 <= a /\ 0 <= k /\ 0 <= m /\ hscale (det3 d1 d2 d3) (cof c d1 d2 d3 x) = (a, k, m).
Proof.
  cbv zeta. unfold in_region.
  destruct (vec3 (nth 0 seg [])) as [[sx sy] sz], (vec3 (nth 1 seg [])) as [[a1 a2] a3],
           (vec3 (nth 2 seg [])) as [[b1 b2] b3], (vec3 (nth 3 seg [])) as [[c1 c2] c3], x as [[x y] z].
  cbv zeta. unfold cof, hscale. cbv zeta.
  change (a1 * (b2 * c3 - b3 * c2) - a2 * (b1 * c3 - b3 * c1) + a3 * (b1 * c2 - b2 * c1)) with (det3 (a1, a2, a3) (b1, b2, b3) (c1, c2, c3)).
  set (D := det3 _ _ _). rewrite !andb_true_iff, orb_true_iff, !Z.eqb_eq, !Z.leb_le, !(Z.mul_comm _ D). split.
  - intros [[[HD Ha] Hb] Hc]. split; [destruct HD as [-> | ->]; reflexivity|]. eexists _, _, _. repeat split; eassumption.
  - intros [HD (a & k & m & Ha & Hk & Hm & E)]. injection E as <- <- <-. repeat split; try assumption. nia.
Qed.

Theorem region_iff_cone seg x : in_region seg x = true <->
  det3 (vec3 (nth 1 seg [])) (vec3 (nth 2 seg [])) (vec3 (nth 3 seg [])) * det3 (vec3 (nth 1 seg [])) (vec3 (nth 2 seg [])) (vec3 (nth 3 seg [])) = 1 /\ in_cone seg x.
Proof.
  rewrite in_region_spec. split; intros [HD H]; (split; [exact HD|]); destruct H as (a & k & m & Ha & Hk & Hm & E); exists a, k, m; repeat split; try assumption.
  - pose proof (lin_cof (vec3 (nth 0 seg [])) _ _ _ x HD) as L. rewrite E in L. symmetry. exact L.
  - subst x. change (hadd _ _) with (lin (vec3 (nth 0 seg [])) (vec3 (nth 1 seg [])) (vec3 (nth 2 seg [])) (vec3 (nth 3 seg [])) (a, k, m)).
    rewrite cof_lin. apply hscale_hscale. exact HD.
Qed.

Lemma in_region_cone seg x : in_region seg x = true -> in_cone seg x.
Proof. intros H. apply region_iff_cone in H. exact (proj2 H). Qed.
Lemma cone_region seg x : in_region seg (vec3 (nth 0 seg [])) = true -> in_cone seg x -> in_region seg x = true.
Proof. intros HU HC. apply region_iff_cone. split; [exact (proj1 (proj1 (region_iff_cone seg _) HU)) | exact HC]. Qed.

(* the staircase point with loop counters (m, k, a) of the l-, k- and h-loop *)
Definition pt (c d1 d2 d3 : hkl) (t : nat * nat * nat) : hkl :=
  let '(m, k, a) := t in lin c d1 d2 d3 (Z.of_nat a, Z.of_nat k, Z.of_nat m).

Lemma pt_inj c d1 d2 d3 t t' : det3 d1 d2 d3 <> 0 -> pt c d1 d2 d3 t = pt c d1 d2 d3 t' -> t = t'.
Proof.
  destruct t as [[m k] a], t' as [[m' k'] a']. intros HD E.
  unfold pt in E.
  apply (f_equal (cof c d1 d2 d3)) in E. rewrite !cof_lin in E. cbn in E. injection E as Ea Ek Em.
  apply Z.mul_reg_l in Ea, Ek, Em; try exact HD. apply Nat2Z.inj in Ea, Ek, Em. subst. reflexivity.
Qed.

Section Trav.
Variable G : metricZ.
Variables Tmin Tmax Tterm : Z.
Variable allowed : hkl -> bool.
Notation keep := (keep G Tmin Tmax allowed).
Notation gloop := (gloop G Tterm).
Notation reach := (reach G Tterm).
Notation one := (fun x : hkl => Some [x]).

Lemma hloop_gloop d1 fuel : forall h, hloop G Tmin Tmax Tterm allowed fuel d1 h = option_map (filter keep) (gloop one d1 fuel h).
Proof.
  intros h. rewrite <- gloop_filter. revert h. induction fuel as [|f IH]; intros h; cbn; [reflexivity|]. rewrite IH. reflexivity.
Qed.
Lemma kloop_gloop fh d1 d2 fuel : forall b, kloop G Tmin Tmax Tterm allowed fuel fh d1 d2 b = gloop (hloop G Tmin Tmax Tterm allowed fh d1) d2 fuel b.
Proof.
  induction fuel as [|f IH]; intros b; cbn; [reflexivity|]. destruct (hloop _ _ _ _ _ fh d1 b); [|reflexivity].
  rewrite Z.ltb_antisym, IH. destruct (qform G (hadd b d2) <=? Tterm); reflexivity.
Qed.
Lemma lloop_gloop fk fh d1 d2 d3 fuel : forall c, lloop G Tmin Tmax Tterm allowed fuel fk fh d1 d2 d3 c = gloop (kloop G Tmin Tmax Tterm allowed fk fh d1 d2) d3 fuel c.
Proof.
  induction fuel as [|f IH]; intros c; cbn; [reflexivity|]. destruct (kloop _ _ _ _ _ fk fh d1 d2 c); [|reflexivity].
  rewrite Z.ltb_antisym, IH. destruct (qform G (hadd c d3) <=? Tterm); reflexivity.
Qed.

(* the points the three loops visit, whatever is kept of them *)
Definition visited (fuel fk fh : nat) (d1 d2 d3 c : hkl) : option (list hkl) := gloop (gloop (gloop one d1 fh) d2 fk) d3 fuel c.
Definition reach3 (c d1 d2 d3 : hkl) (t : nat * nat * nat) : Prop :=
  let '(m, k, a) := t in reach c d3 m /\ reach (step c d3 m) d2 k /\ reach (step (step c d3 m) d2 k) d1 a.

Lemma lloop_visited fuel fk fh d1 d2 d3 c :
  lloop G Tmin Tmax Tterm allowed fuel fk fh d1 d2 d3 c = option_map (filter keep) (visited fuel fk fh d1 d2 d3 c).
Proof.
  unfold visited. rewrite lloop_gloop, <- gloop_filter. apply gloop_ext. intros b.
  rewrite kloop_gloop, <- gloop_filter. apply gloop_ext. intros h. apply hloop_gloop.
Qed.
End Trav.

Section Visited.
Variable G : metricZ.
Variable Tterm : Z.
Variables (fuel fk fh : nat) (d1 d2 d3 c : hkl) (l : list hkl).
Hypothesis H : visited G Tterm fuel fk fh d1 d2 d3 c = Some l.

Lemma visited_spec x : In x l <-> exists t, reach3 G Tterm c d1 d2 d3 t /\ x = pt c d1 d2 d3 t.
Proof.
  split.
  - intros Hx. destruct (gloop_In H x Hx) as (m & rows & Rm & Hm & Hx2).
    destruct (gloop_In Hm x Hx2) as (k & row & Rk & Hk & Hx1).
    destruct (gloop_In Hk x Hx1) as (a & r & Ra & Ha & Hx0).
    injection Ha as <-. destruct Hx0 as [<-|[]]. exists (m, k, a). split; [exact (conj Rm (conj Rk Ra)) | reflexivity].
  - intros ([[m k] a] & (Rm & Rk & Ra) & ->).
    destruct (gloop_reach H m Rm) as (rows & Hm & Im). apply Im.
    destruct (gloop_reach Hm k Rk) as (row & Hk & Ik). apply Ik.
    destruct (gloop_reach Hk a Ra) as (r & Ha & Ia). apply Ia.
    injection Ha as <-. left. reflexivity.
Qed.

Lemma visited_NoDup : det3 d1 d2 d3 <> 0 -> NoDup l.
Proof.
  intros HD. pose proof (fun t t' => pt_inj c d1 d2 d3 t t' HD) as Inj.
  apply (gloop_NoDup (fun m x => exists k a, x = pt c d1 d2 d3 (m, k, a)) H).
  - intros m rows Hm. apply (gloop_NoDup (fun k x => exists a, x = pt c d1 d2 d3 (m, k, a)) Hm).
    + intros k row Hk. apply (gloop_NoDup (fun a x => x = pt c d1 d2 d3 (m, k, a)) Hk).
      * intros a r Ha. injection Ha as <-. split; [constructor; [intros []|constructor] | intros x [<-|[]]; reflexivity].
      * intros a a' x -> E. apply Inj in E. congruence.
    + intros k k' x (a & ->) (a' & E). apply Inj in E. congruence.
  - intros m m' x (k & a & ->) (k' & a' & E). apply Inj in E. congruence.
Qed.
End Visited.
Arguments visited_spec {G Tterm fuel fk fh d1 d2 d3 c l}.
Arguments visited_NoDup {G Tterm fuel fk fh d1 d2 d3 c l}.

Section Segment.
Variable G : metricZ.
Variables Tmin Tmax Tterm : Z.
Variable allowed : hkl -> bool.
Notation keep := (keep G Tmin Tmax allowed).

Lemma keep_spec x : keep x = true <-> allowed x = true /\ Tmin < qform G x <= Tmax.
Proof. unfold Traverse.keep. rewrite !andb_true_iff, Z.ltb_lt, Z.leb_le. tauto. Qed.
Lemma shell_nz x : 0 <= Tmin -> Tmin < qform G x -> x <> (0, 0, 0).
Proof. intros H0 H ->. unfold qform in H. lia. Qed.

Lemma pt_in_cone seg t : in_cone seg (pt (vec3 (nth 0 seg [])) (vec3 (nth 1 seg [])) (vec3 (nth 2 seg [])) (vec3 (nth 3 seg [])) t).
Proof. destruct t as [[m k] a]. exists (Z.of_nat a), (Z.of_nat k), (Z.of_nat m). repeat split; lia. Qed.

(* what one segment lists, for any metric: the kept ones among the points its three loops reach, each once *)
Theorem segment_exact fuel seg l : segment G Tmin Tmax Tterm allowed fuel seg = Some l ->
  let c := vec3 (nth 0 seg []) in let d1 := vec3 (nth 1 seg []) in let d2 := vec3 (nth 2 seg []) in let d3 := vec3 (nth 3 seg []) in
  (forall x, In x l <-> keep x = true /\ exists t, reach3 G Tterm c d1 d2 d3 t /\ x = pt c d1 d2 d3 t) /\ (det3 d1 d2 d3 <> 0 -> NoDup l).
Proof.
  unfold segment. rewrite lloop_visited. destruct (visited _ _ _ _ _ _ _ _ _) as [v|] eqn:V; [|discriminate]. intros E. injection E as <-. cbv zeta. split.
  - intros x. rewrite filter_In, (visited_spec V x). tauto.
  - intros HD. apply NoDup_filter. exact (visited_NoDup V HD).
Qed.

Lemma segment_sound fuel seg l : segment G Tmin Tmax Tterm allowed fuel seg = Some l -> forall x, In x l -> keep x = true /\ in_cone seg x.
Proof.
  intros H x Hx. apply (proj1 (segment_exact _ _ _ H)) in Hx. destruct Hx as [K (t & _ & ->)]. split; [exact K | apply pt_in_cone].
Qed.

Lemma all_segments_flat fuel segs l : all_segments G Tmin Tmax Tterm allowed fuel segs = Some l ->
  exists f, l = flat_map f segs /\ forall seg, In seg segs -> segment G Tmin Tmax Tterm allowed fuel seg = Some (f seg).
Proof.
  intros H. exists (fun seg => match segment G Tmin Tmax Tterm allowed fuel seg with Some a => a | None => [] end).
  revert l H; induction segs as [|s r IH]; intros l H; cbn in H.
  - injection H as <-. split; [reflexivity | intros seg []].
  - destruct (segment G Tmin Tmax Tterm allowed fuel s) as [a|] eqn:ES; [|discriminate].
    destruct (all_segments G Tmin Tmax Tterm allowed fuel r) as [b|]; [|discriminate]. injection H as <-.
    destruct (IH b eq_refl) as [E F]. split; [cbn; rewrite ES, <- E; reflexivity|].
    intros seg [<-|Hs]; [rewrite ES; reflexivity | exact (F seg Hs)].
Qed.

Theorem all_segments_sound fuel segs l : all_segments G Tmin Tmax Tterm allowed fuel segs = Some l ->
  forall x, In x l -> (allowed x = true /\ Tmin < qform G x <= Tmax) /\ exists seg, In seg segs /\ in_cone seg x.
Proof.
  intros H x Hx. destruct (all_segments_flat _ _ _ H) as (f & -> & F). apply in_flat_map in Hx. destruct Hx as (seg & Hs & Hx).
  destruct (segment_sound _ _ _ (F seg Hs) x Hx) as [K C]. split; [apply keep_spec; exact K | exists seg; auto].
Qed.

(* if the cones hold at most one member of every orbit of L, so do the rows: each row lies in the cone of its segment *)
Lemma rows_one (L : list mat) fuel segs l :
  (forall R seg1 seg2 x, In R L -> In seg1 segs -> In seg2 segs -> in_cone seg1 x -> in_cone seg2 (vmZ x R) -> vmZ x R = x /\ seg1 = seg2) ->
  all_segments G Tmin Tmax Tterm allowed fuel segs = Some l -> forall x y R, In x l -> In y l -> In R L -> y = vmZ x R -> y = x.
Proof.
  intros One H x y R Hx Hy HR ->.
  destruct (all_segments_sound fuel segs l H x Hx) as [_ (seg1 & S1 & C1)]. destruct (all_segments_sound fuel segs l H _ Hy) as [_ (seg2 & S2 & C2)].
  exact (proj1 (One R seg1 seg2 x HR S1 S2 C1 C2)).
Qed.

Theorem all_segments_nodup fuel segs l : all_segments G Tmin Tmax Tterm allowed fuel segs = Some l ->
  NoDup segs -> (forall seg, In seg segs -> det3 (vec3 (nth 1 seg [])) (vec3 (nth 2 seg [])) (vec3 (nth 3 seg [])) <> 0) ->
  (forall s1 s2 x, In s1 segs -> In s2 segs -> in_cone s1 x -> in_cone s2 x -> s1 = s2) -> NoDup l.
Proof.
  intros H NS HD Hdis. destruct (all_segments_flat _ _ _ H) as (f & -> & F). apply flat_map_nodup; [exact NS | |].
  - intros seg Hs. exact (proj2 (segment_exact _ _ _ (F seg Hs)) (HD seg Hs)).
  - intros s1 s2 x H1 H2 X1 X2.
    exact (Hdis s1 s2 x H1 H2 (proj2 (segment_sound _ _ _ (F s1 H1) x X1)) (proj2 (segment_sound _ _ _ (F s2 H2) x X2))).
Qed.

End Segment.
Arguments all_segments_flat {G Tmin Tmax Tterm allowed fuel segs l}.

(* Traverse.dedup_hkl is Dedup.gdedup hkl_eqb (same fixpoint) *)
Lemma dedup_hkl_spec l seen : NoDup seen -> NoDup (dedup_hkl l seen) /\ forall x, In x (dedup_hkl l seen) <-> In x l \/ In x seen.
Proof. exact (gdedup_spec hkl_eqb hkl_eqb_spec l seen). Qed.

Theorem expand_is_orbit rots h : NoDup (expand rots h) /\
  forall x, In x (expand rots h) <-> exists R, In R rots /\ (x = vmZ h R \/ x = vmZ h (mnegZ R)).
Proof.
  unfold expand. destruct (dedup_hkl_spec (map (fun R => vmZ h R) rots ++ map (fun R => vmZ h (mnegZ R)) rots) [] (NoDup_nil _)) as [N I].
  split; [exact N|]. intros x. rewrite I, in_app_iff, !in_map_iff. cbn. split.
  - intros [[[R [E H]]|[R [E H]]]|[]]; exists R; split; auto.
  - intros [R [H [E|E]]]; left; [left | right]; exists R; auto.
Qed.
