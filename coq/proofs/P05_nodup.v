(* C05 / C06: for every setting, the cones of its segments are a fundamental domain of its Laue group (P05_all.fund_domain): the
   group facts come from the C04 check (P04_group.laue_group), covering from gen/P05_cov_all.v, uniqueness from gen/P06_fd.v,
   unimodularity from segm_all_found.  So the traversal model never lists a point twice, neither does the model of genhkl_all,
   and where the traversal is complete the latter lists exactly the allowed reflections of the shell. *)
From Coq Require Import ZArith List.
From XV Require Import SGroup HklModel Traverse Tab_segm Tab_sg_all P05 P05_complete P06_fd P05_cov_all P06_fd_main P05_all P04 P04_group SGFacts.
Import ListNotations.
Open Scope Z_scope.

Definition seg_dec : forall a b : list (list Z), {a = b} + {a <> b} := list_eq_dec (list_eq_dec Z.eq_dec).
Lemma fd_segs_nodup : map (fun e => nodup seg_dec (snd e)) fd_table = map snd fd_table.
Proof. vm_compute. reflexivity. Qed.

Section Setting.
Variable s : sgrec.
Hypothesis Hs : In s all_settings.
Variables (L : list mat) (segs : list (list (list Z))) (rots : list mat).
Hypothesis Hrots : all_mats (firstn (Z.to_nat (sg_nuniq s)) (sg_rot s)) = Some rots.
Hypothesis HL : L = rots ++ map mnegZ rots.
Hypothesis Hsegs : lookup_segm segm_laue (sg_laue s) (sg_choice s) = Some segs.

Lemma setting_domain : fund_domain L segs.
Proof.
  pose proof (laue_mats_L s L rots Hrots HL) as HLm.
  destruct (setting_ops s Hs) as (ops & Ho & Hok).
  destruct (fd_setting_spec s L Hs HLm) as (e & He & _ & Hl & HG). rewrite Hsegs in Hl. injection Hl as Es.
  split.
  - rewrite HL. exact (laue_group s ops rots Ho Hok Hrots).
  - intros [[x y] z] Hnz. destruct (fd_table_cover e He x y z (proj1 (hkl_nz x y z) Hnz)) as (R & seg & HR & Hseg & Hc).
    exists R, seg. rewrite HG, Es. auto.
  - exact (one_per_family s L segs Hs HLm Hsegs).
  - rewrite Es, <- (ext_in_map fd_segs_nodup e He). apply NoDup_nodup.
  - intros seg Hseg E. destruct (setting_segs s Hs) as (segs' & E' & HU). rewrite Hsegs in E'. injection E' as <-.
    apply HU, region_iff_cone in Hseg. rewrite E in Hseg. destruct Hseg; discriminate.
Qed.

Variable G : metricZ.
Variables Tmin Tmax Tterm : Z.
Variable allowed : hkl -> bool.

Theorem reps_nodup fuel reps : all_segments G Tmin Tmax Tterm allowed fuel segs = Some reps -> NoDup reps.
Proof. exact (domain_reps_nodup L segs setting_domain G Tmin Tmax Tterm allowed fuel reps). Qed.

Theorem all_rows_nodup fuel reps : all_segments G Tmin Tmax Tterm allowed fuel segs = Some reps -> NoDup (flat_map (expand rots) reps).
Proof. exact (domain_rows_nodup L rots segs HL setting_domain G Tmin Tmax Tterm allowed fuel reps). Qed.

Theorem all_rows_complete : Tmax <= Tterm -> (forall seg, In seg segs -> gram_ok G seg = true) ->
  (forall R h, In R L -> qform G (vmZ h R) = qform G h) -> (forall R h, In R L -> qform G h <= Tmax -> allowed (vmZ h R) = allowed h) ->
  forall fuel reps, all_segments G Tmin Tmax Tterm allowed fuel segs = Some reps ->
  forall h, h <> (0, 0, 0) -> allowed h = true -> Tmin < qform G h <= Tmax -> In h (flat_map (expand rots) reps).
Proof. intros HT Hmono Hq Ha fuel reps H. exact (domain_complete L rots segs HL setting_domain G Tmin Tmax Tterm allowed fuel reps H HT Hmono Hq Ha). Qed.
End Setting.

Theorem all_rows_exact s L segs rots G Tmin Tmax Tterm allowed fuel reps :
  In s all_settings -> all_mats (firstn (Z.to_nat (sg_nuniq s)) (sg_rot s)) = Some rots -> L = rots ++ map mnegZ rots ->
  lookup_segm segm_laue (sg_laue s) (sg_choice s) = Some segs ->
  0 <= Tmin -> Tmax <= Tterm -> (forall seg, In seg segs -> gram_ok G seg = true) ->
  (forall R h, In R L -> qform G (vmZ h R) = qform G h) -> (forall R h, In R L -> qform G h <= Tmax -> allowed (vmZ h R) = allowed h) ->
  all_segments G Tmin Tmax Tterm allowed fuel segs = Some reps ->
  NoDup (flat_map (expand rots) reps) /\
  forall h, In h (flat_map (expand rots) reps) <-> (allowed h = true /\ Tmin < qform G h <= Tmax).
Proof.
  intros Hs Hrots HL Hsegs H0 HT Hmono Hq Ha H.
  exact (domain_exact L rots segs HL (setting_domain s Hs L segs rots Hrots HL Hsegs) G Tmin Tmax Tterm allowed fuel reps H HT Hmono Hq Ha H0).
Qed.
