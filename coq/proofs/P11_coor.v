(* C11: pixel coordinate maps (traced per orientation from detector.xy_to_detyz / detyz_to_xy) are mutual inverses *)
From Coq Require Import Reals Lra.
From XV Require Import Mat3 Gen_detector.
Open Scope R_scope.

(* A valid orientation is a triple (t, sx, sy): t = the matrix is anti-diagonal (no swap of the two axes), sx / sy = the raw x / y
   axis is reversed.  On a detector of sizes >= 1 the clip offset of detector.py makes the reversal v |-> N - 1 - v, with the x
   extent taken from detz_size and the y extent from dety_size whatever t is. *)
Definition flipR (s : bool) (N v : R) : R := if s then N - 1 - v else v.

Lemma flipR_invol s N v : flipR s N (flipR s N v) = v.
Proof. destruct s; unfold flipR; ring. Qed.

Definition xy_map (t sx sy : bool) (c : V2) (Ny Nz : R) : V2 :=
  if t then mkV2 (flipR sx Nz (p0 c)) (flipR sy Ny (p1 c)) else mkV2 (flipR sy Ny (p1 c)) (flipR sx Nz (p0 c)).
Definition yx_map (t sx sy : bool) (c : V2) (Ny Nz : R) : V2 :=
  if t then mkV2 (flipR sx Nz (p0 c)) (flipR sy Ny (p1 c)) else mkV2 (flipR sx Nz (p1 c)) (flipR sy Ny (p0 c)).

Lemma yx_xy_map t sx sy c Ny Nz : yx_map t sx sy (xy_map t sx sy c Ny Nz) Ny Nz = c.
Proof. destruct c as [x y], t; cbn; rewrite !flipR_invol; reflexivity. Qed.
Lemma xy_yx_map t sx sy c Ny Nz : xy_map t sx sy (yx_map t sx sy c Ny Nz) Ny Nz = c.
Proof. destruct c as [x y], t; cbn; rewrite !flipR_invol; reflexivity. Qed.

(* The tracer specialises detector.py by orientation; these put the sixteen traced definitions back under their triple. *)
Definition xy_fun (t sx sy : bool) : V2 -> R -> R -> V2 :=
  match t, sx, sy with
  | false, false, false => detector_xy_to_detyz_o0 | false, true, false => detector_xy_to_detyz_o1
  | false, false, true => detector_xy_to_detyz_o2 | false, true, true => detector_xy_to_detyz_o3
  | true, false, false => detector_xy_to_detyz_o4 | true, true, true => detector_xy_to_detyz_o5
  | true, false, true => detector_xy_to_detyz_o6 | true, true, false => detector_xy_to_detyz_o7
  end.
Definition yx_fun (t sx sy : bool) : V2 -> R -> R -> V2 :=
  match t, sx, sy with
  | false, false, false => detector_detyz_to_xy_o0 | false, true, false => detector_detyz_to_xy_o1
  | false, false, true => detector_detyz_to_xy_o2 | false, true, true => detector_detyz_to_xy_o3
  | true, false, false => detector_detyz_to_xy_o4 | true, true, true => detector_detyz_to_xy_o5
  | true, false, true => detector_detyz_to_xy_o6 | true, true, false => detector_detyz_to_xy_o7
  end.

(* The traced definitions are decision trees over the clip comparisons, which involve the sizes only; this is the one place
   where they are walked.  Most branches contradict 1 <= Ny, 1 <= Nz and are cut as they appear; the others agree with the closed
   form up to lra. *)
Ltac walk :=
  lazymatch goal with |- ?f _ _ _ = _ => unfold f end; cbv zeta; cbn [p0 p1 flipR];
  repeat match goal with |- context [Rlt_dec ?a ?b] => destruct (Rlt_dec a b); try (exfalso; lra) end;
  f_equal; lra.

Lemma xy_fun_eq t sx sy c Ny Nz : 1 <= Ny -> 1 <= Nz -> xy_fun t sx sy c Ny Nz = xy_map t sx sy c Ny Nz.
Proof.
  intros Hy Hz. destruct c as [x y], t, sx, sy; cbn [xy_fun xy_map]; walk.
Qed.
Lemma yx_fun_eq t sx sy c Ny Nz : 1 <= Ny -> 1 <= Nz -> yx_fun t sx sy c Ny Nz = yx_map t sx sy c Ny Nz.
Proof.
  intros Hy Hz. destruct c as [x y], t, sx, sy; cbn [yx_fun yx_map]; walk.
Qed.

Definition inverse_on (f g : V2 -> R -> R -> V2) : Prop := forall c Ny Nz, 1 <= Ny -> 1 <= Nz -> g (f c Ny Nz) Ny Nz = c.

Lemma yx_xy_fun t sx sy : inverse_on (xy_fun t sx sy) (yx_fun t sx sy).
Proof. intros c Ny Nz Hy Hz. rewrite xy_fun_eq, yx_fun_eq by assumption. apply yx_xy_map. Qed.
Lemma xy_yx_fun t sx sy : inverse_on (yx_fun t sx sy) (xy_fun t sx sy).
Proof. intros c Ny Nz Hy Hz. rewrite yx_fun_eq, xy_fun_eq by assumption. apply xy_yx_map. Qed.

Lemma xy_to_detyz_o0_eq : forall x y Ny Nz, 1 <= Ny -> 1 <= Nz -> detector_xy_to_detyz_o0 (mkV2 x y) Ny Nz = mkV2 y x.
Proof. intros x y. exact (xy_fun_eq false false false (mkV2 x y)). Qed.

Lemma eta_rad_inverse eta rad cy cz : 1 <= rad -> 0 <= eta < 360 ->
  detector_detyz_to_eta_and_radpix (detector_eta_and_radpix_to_detyz eta rad cy cz) cy cz = mkV2 eta rad.
Proof.
  intros Hr He. pose proof PI_RGT_0 as P.
  unfold detector_eta_and_radpix_to_detyz, detector_detyz_to_eta_and_radpix; cbv zeta; cbn [p0 p1].
  set (e := eta * PI / 180).
  assert (E0 : 0 <= e < 2 * PI) by (unfold e; split; nra).
  replace (rad * - sin e + cy - cy) with (- (rad * sin e)) by ring.
  replace (rad * cos e + cz - cz) with (rad * cos e) by ring.
  assert (S : sqrt ((- (rad * sin e)) ^ 2 + (rad * cos e) ^ 2) = rad).
  { replace ((- (rad * sin e)) ^ 2 + (rad * cos e) ^ 2) with (rad * rad * (sin e * sin e + cos e * cos e)) by ring.
    rewrite sc1, Rmult_1_r. apply sqrt_square. lra. }
  rewrite S. destruct (Rlt_dec rad 1) as [L|L]; [lra|].
  replace (rad * cos e / rad) with (cos e) by (field; lra).
  destruct (Rle_dec (- (rad * sin e)) 0) as [Q|Q].
  - (* sin e >= 0: e in [0, pi] *)
    assert (He' : e <= PI).
    { destruct (Rle_dec e PI) as [X|X]; [exact X|]. exfalso.
      assert (sin e < 0) by (apply sin_lt_0; lra). nra. }
    rewrite acos_cos by lra. f_equal. unfold e. field. lra.
  - assert (He' : PI < e).
    { destruct (Rlt_dec PI e) as [X|X]; [exact X|]. exfalso. assert (0 <= sin e) by (apply sin_ge_0; lra). nra. }
    replace (cos e) with (cos (2 * PI - e)) by (rewrite cos_minus, cos_2PI, sin_2PI; ring).
    rewrite acos_cos by lra. f_equal. unfold e. field. lra.
Qed.
