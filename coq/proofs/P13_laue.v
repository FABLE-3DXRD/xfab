(* C13 for xfab.laue: strain <-> B.  Both maps are treated once, in Section Strain, over any upper triangular reference matrix B0
   with positive diagonal: b_to_epsilon is B |-> sym_minus_I (B0 B^-1), epsilon_to_b is eps |-> (Tmat B0 eps)^-1, and Tmat B0
   inverts T |-> sym_minus_I (B0 T) on upper triangular T.  laue is the instance B0 = form_b_mat c, tools (P13_tools.v) 2 pi times it. *)
From Coq Require Import Reals Psatz.
From XV Require Import Mat3 Cell Gen_laue P01_laue.
Open Scope R_scope.

(* the strain of a matrix M = B0 . B^-1 : symmetric part minus identity, as [e11 e12 e13 e22 e23 e33] *)
Definition sym_minus_I (M : M3) : V6 :=
  mkV6 (m00 M - 1) ((m01 M + m10 M) / 2) ((m02 M + m20 M) / 2) (m11 M - 1) ((m12 M + m21 M) / 2) (m22 M - 1).

(* the form in which the code computes it, 1/2 (M + M') - I entry by entry; the generated strain functions are this at a product
   spelled out, which conversion sees *)
Lemma sym_minus_I_code M :
  mkV6 (1 / 2 * (m00 M + m00 M) - 1) (1 / 2 * (m01 M + m10 M)) (1 / 2 * (m02 M + m20 M))
       (1 / 2 * (m11 M + m11 M) - 1) (1 / 2 * (m12 M + m21 M)) (1 / 2 * (m22 M + m22 M) - 1) = sym_minus_I M.
Proof. unfold sym_minus_I. f_equal; field. Qed.

Lemma sym_minus_I_I : sym_minus_I mI = mkV6 0 0 0 0 0 0.
Proof. unfold sym_minus_I, mI; cbn. f_equal; field. Qed.

Lemma laue_b_to_epsilon_def B c : laue_b_to_epsilon B c = sym_minus_I (mmul (laue_form_b_mat c) (minv B)).
Proof. exact (sym_minus_I_code (mmul (laue_form_b_mat c) (minv B))). Qed.

(* the upper triangular matrix T with sym(B0 T) - I = eps, as the code builds it *)
Definition Tmat (B0 : M3) (eps : V6) : M3 :=
  let t11 := (c3 eps + 1) / m11 B0 in
  let t22 := (c5 eps + 1) / m22 B0 in
  let t12 := (2 * c4 eps - m12 B0 * t22) / m11 B0 in
  mkM3 ((c0 eps + 1) / m00 B0) ((2 * c1 eps - m01 B0 * t11) / m00 B0)
       ((2 * c2 eps - m01 B0 * t12 - m02 B0 * t22) / m00 B0)
       0 t11 t12 0 0 t22.

Lemma laue_epsilon_to_b_def eps c : laue_epsilon_to_b eps c = minv (Tmat (laue_form_b_mat c) eps).
Proof. reflexivity. Qed.

Definition strain_ok (eps : V6) : Prop := c0 eps <> -1 /\ c3 eps <> -1 /\ c5 eps <> -1.

Section Strain.
Variable B0 : M3.
Hypothesis HB : upper_posdiag B0.

Lemma Tmat_det eps : strain_ok eps -> mdet (Tmat B0 eps) <> 0.
Proof.
  destruct HB as [_ (P0 & P1 & P2)]. intros (S0 & S1 & S2).
  rewrite upper_det by (repeat split; reflexivity). unfold Tmat, Rdiv; cbn [m00 m11 m22].
  repeat apply Rmult_integral_contrapositive_currified; try apply Rinv_neq_0_compat; lra.
Qed.

Lemma sym_B0_T eps : sym_minus_I (mmul B0 (Tmat B0 eps)) = eps.
Proof.
  destruct HB as [[U1 [U2 U3]] [P0 [P1 P2]]].
  destruct B0 as [a b cc d e f g h i], eps as [e11 e12 e13 e22 e23 e33]. unfold Tmat, sym_minus_I, mmul; cbn in *. subst.
  f_equal; field; repeat split; lra.
Qed.

Lemma Tmat_of_strain T : upper T -> Tmat B0 (sym_minus_I (mmul B0 T)) = T.
Proof.
  destruct HB as [[U1 [U2 U3]] [P0 [P1 P2]]]. intros (V1 & V2 & V3).
  destruct B0 as [a b cc d e f g h i], T as [a' b' c' d' e' f' g' h' i']. unfold Tmat, sym_minus_I, mmul; cbn in *. subst.
  f_equal; field; repeat split; lra.
Qed.

Lemma strain_eps_roundtrip eps : strain_ok eps -> sym_minus_I (mmul B0 (minv (minv (Tmat B0 eps)))) = eps.
Proof. intros Hs. rewrite minv_invol by (apply Tmat_det; exact Hs). apply sym_B0_T. Qed.

Lemma strain_b_roundtrip B : upper B -> mdet B <> 0 -> minv (Tmat B0 (sym_minus_I (mmul B0 (minv B)))) = B.
Proof. intros HU HD. rewrite Tmat_of_strain by (apply upper_minv; assumption). apply minv_invol; exact HD. Qed.

(* zero strain is the strain of B0 itself *)
Lemma strain_zero : minv (Tmat B0 (mkV6 0 0 0 0 0 0)) = B0.
Proof.
  assert (D : mdet B0 <> 0) by (apply Rgt_not_eq, upper_posdiag_det, HB).
  rewrite <- sym_minus_I_I, <- (minv_r B0 D). apply strain_b_roundtrip; [apply HB | exact D].
Qed.
End Strain.

Lemma Tmat_scale B0 eps k : k <> 0 -> m00 B0 <> 0 -> m11 B0 <> 0 -> m22 B0 <> 0 ->
  Tmat (mscale k B0) eps = mscale (/ k) (Tmat B0 eps).
Proof.
  intros Hk H0 H1 H2. destruct B0 as [a b c d e f g h i], eps as [e11 e12 e13 e22 e23 e33]. cbn in *.
  unfold Tmat, mscale; cbn. f_equal; field; repeat split; assumption.
Qed.

Lemma laue_eps_roundtrip eps c : valid_cell c -> strain_ok eps ->
  laue_b_to_epsilon (laue_epsilon_to_b eps c) c = eps.
Proof.
  intros Hc. rewrite laue_b_to_epsilon_def, laue_epsilon_to_b_def. apply strain_eps_roundtrip, laue_B_upper_posdiag, Hc.
Qed.

Lemma laue_zero_strain c : valid_cell c -> laue_epsilon_to_b (mkV6 0 0 0 0 0 0) c = laue_form_b_mat c.
Proof. intros Hc. rewrite laue_epsilon_to_b_def. apply strain_zero, laue_B_upper_posdiag, Hc. Qed.

Lemma laue_b_roundtrip B c : valid_cell c -> upper B -> mdet B <> 0 ->
  laue_epsilon_to_b (laue_b_to_epsilon B c) c = B.
Proof.
  intros Hc. rewrite laue_epsilon_to_b_def, laue_b_to_epsilon_def. apply strain_b_roundtrip, laue_B_upper_posdiag, Hc.
Qed.
