(* C13 (tools): the _old strain pair, from the laue theorems and the tools/laue relations of C14 *)
From Coq Require Import Reals Lra.
From XV Require Import Mat3 Cell Gen_tools P14_cell P13_ubi P13_old P14_rest.
Open Scope R_scope.

Lemma tools_eps_roundtrip_old eps c : valid_cell c -> strain_small eps ->
  tools_b_to_epsilon_old (tools_epsilon_to_b_old eps c) c = eps.
Proof.
  intros Hc Hs. rewrite tl_epsilon_to_b_old by assumption. rewrite tl_b_to_epsilon_old.
  apply laue_eps_roundtrip_old; assumption.
Qed.

Lemma tools_zero_strain_old c : valid_cell c -> tools_epsilon_to_b_old (mkV6 0 0 0 0 0 0) c = tools_form_b_mat c.
Proof.
  intros Hc. rewrite tl_epsilon_to_b_old; [| exact Hc | unfold strain_small; cbn; lra].
  rewrite laue_zero_strain_old by exact Hc. symmetry. apply tl_form_b_mat; exact Hc.
Qed.

