(* C03 for xfab.tools through the C14 bridge *)
From Coq Require Import Reals.
From XV Require Import Mat3 Gen_tools P03_laue P03_euler P03_band P03_gimbal P14_rot.
Open Scope R_scope.

Lemma tools_euler_comp p1 P p2 : tools_euler_to_u p1 P p2 = mmul (Rz p1) (mmul (Rx P) (Rz p2)).
Proof. rewrite tl_euler_to_u. apply laue_euler_comp. Qed.
Lemma tools_euler_rot p1 P p2 : is_rot (tools_euler_to_u p1 P p2).
Proof. rewrite tl_euler_to_u. apply laue_euler_rot. Qed.
Lemma tools_omega_comp w : tools_form_omega_mat w = Rz w.
Proof. rewrite tl_form_omega_mat. apply laue_omega_comp. Qed.
Lemma tools_omega_general_comp w chi wedge : tools_form_omega_mat_general w chi wedge = mmul (Rx chi) (mmul (Ry wedge) (Rz w)).
Proof. rewrite tl_form_omega_mat_general. apply laue_omega_general_comp. Qed.
Lemma tools_tilt_comp tx ty tz : tools_detect_tilt tx ty tz = mmul (Rx tx) (mmul (Ry ty) (Rz tz)).
Proof. rewrite tl_detect_tilt. apply laue_tilt_comp. Qed.
Lemma tools_quart_comp w wx wy :
  tools_quart_to_omega w wx wy = mmul (mmul (Rx wx) (Ry wy)) (mmul (Rz (w * PI / 180)) (mtrans (mmul (Rx wx) (Ry wy)))).
Proof. rewrite tl_quart_to_omega. apply laue_quart_comp. Qed.
Lemma tools_omega_general_rot w chi wedge : is_rot (tools_form_omega_mat_general w chi wedge).
Proof. rewrite tl_form_omega_mat_general. apply laue_omega_general_rot. Qed.
Lemma tools_tilt_rot tx ty tz : is_rot (tools_detect_tilt tx ty tz).
Proof. rewrite tl_detect_tilt. apply laue_tilt_rot. Qed.
Lemma tools_quart_rot w wx wy : is_rot (tools_quart_to_omega w wx wy).
Proof. rewrite tl_quart_to_omega. apply laue_quart_rot. Qed.
Lemma tools_rod_rot r : is_rot (tools_rod_to_u r).
Proof. rewrite tl_rod_to_u. apply laue_rod_rot. Qed.
Lemma tools_rod_axis r : mvmul (tools_rod_to_u r) r = r.
Proof. rewrite tl_rod_to_u. apply laue_rod_axis. Qed.
Lemma tools_rod_angle r : mtrace (tools_rod_to_u r) = 1 + 2 * cos (2 * atan (vnorm r)).
Proof. rewrite tl_rod_to_u. apply laue_rod_angle. Qed.
Lemma tools_rod_passive t : tools_rod_to_u (mkV3 0 0 t) = mtrans (Rz (2 * atan t)).
Proof. rewrite tl_rod_to_u. apply laue_rod_passive. Qed.
Lemma tools_u_to_rod_inv r : vnorm2 r < 1000000000000000 -> tools_u_to_rod (tools_rod_to_u r) = Some r.
Proof. rewrite tl_rod_to_u, tl_u_to_rod. apply laue_u_to_rod_inv. Qed.
Lemma tools_rod_to_u_inv U r : is_rot U -> tools_u_to_rod U = Some r -> tools_rod_to_u r = U.
Proof. rewrite tl_rod_to_u, tl_u_to_rod. apply laue_rod_to_u_inv. Qed.

Lemma tools_euler_range U e : tools_u_to_euler U = Some e -> 0 <= vx e <= 2 * PI /\ 0 <= vy e <= PI /\ 0 <= vz e <= 2 * PI.
Proof. rewrite tl_u_to_euler. apply euler_range. Qed.
Lemma tools_euler_exact U : is_rot U -> not_gimbal U -> generic (m02 U) (- m12 U) -> generic (m20 U) (m21 U) ->
  exists e, tools_u_to_euler U = Some e /\ tools_euler_to_u (vx e) (vy e) (vz e) = U.
Proof. intros. rewrite tl_u_to_euler. destruct (euler_exact U) as (e & E1 & E2); try assumption. exists e. rewrite tl_euler_to_u. auto. Qed.
Lemma tools_euler_of_angles p1 P p2 : 0 <= p1 < 2 * PI -> 0 <= p2 < 2 * PI -> 0 < P < PI ->
  let U := tools_euler_to_u p1 P p2 in
  not_gimbal U -> generic (m02 U) (- m12 U) -> generic (m20 U) (m21 U) -> tools_u_to_euler U = Some (mkV3 p1 P p2).
Proof. intros H1 H2 H3. cbv zeta. rewrite tl_euler_to_u, tl_u_to_euler. apply euler_of_angles; assumption. Qed.
Lemma tools_euler_total U : is_rot U -> exists e, tools_u_to_euler U = Some e.
Proof. rewrite tl_u_to_euler. apply euler_total. Qed.
Lemma tools_euler_roundtrip_all U e : is_rot U -> tools_u_to_euler U = Some e ->
  mclose (1 / 1000000) (tools_euler_to_u (vx e) (vy e) (vz e)) U.
Proof. rewrite tl_u_to_euler, tl_euler_to_u. apply euler_roundtrip_all. Qed.
