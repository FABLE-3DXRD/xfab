(* C04: names and lookup on the generated tables; the group check read for one tabulated setting (every_setting_ok, setting_ops) *)
From Coq Require Import ZArith List Bool Ascii String.
From XV Require Import SGroup Tab_sg_all Tab_sgnames P04_all.
Import ListNotations.
Open Scope Z_scope.

Definition is_rh (r : sgrec) : bool := String.eqb (sg_choice r) "rhombohedral".

(* what sg(sgno=no, cell_choice=req) returns, on the extracted table of distinct settings *)
Definition lookup (no : Z) (req : string) : option sgrec :=
  if String.eqb req "rhombohedral" then
    match find (fun r => (sg_no r =? no) && is_rh r) all_settings with
    | Some r => Some r
    | None => find (fun r => sg_no r =? no) all_settings
    end
  else find (fun r => (sg_no r =? no) && negb (is_rh r)) all_settings.

Definition key_matches (key : string) (r : sgrec) : bool :=
  let nm := sg_normalise (sg_name r) in
  String.eqb key nm || (String.eqb (sg_choice r) "hexagonal" && String.eqb key (nm ++ "h")).

Definition name_ok (e : string * string * sgrec) : bool :=
  let '(key, _, r) := e in
  key_matches key r &&
  match lookup (sg_no r) (name_choice key) with
  | Some r' => sgrec_eqb r r'
  | None => false
  end.

Lemma names_ok : forallb name_ok sg_byname = true.
Proof. vm_compute. reflexivity. Qed.

(* every setting is reachable by at least one name, and numbers 1..230 are all present *)
Definition reachable (r : sgrec) : bool := existsb (fun e => sgrec_eqb r (snd e)) sg_byname.
Lemma all_reachable : forallb reachable all_settings = true.
Proof. vm_compute. reflexivity. Qed.
Lemma all_numbers : forallb (fun n => existsb (fun r => sg_no r =? n) all_settings) (map Z.of_nat (seq 1 230)) = true
                    /\ forallb (fun r => (1 <=? sg_no r) && (sg_no r <=? 230)) all_settings = true
                    /\ List.length all_settings = 237%nat /\ List.length sg_byname = 244%nat.
Proof. vm_compute. repeat split; reflexivity. Qed.

Lemma every_setting_ok s : In s all_settings -> group_ok s = true.
Proof. intros H. exact (proj1 (forallb_forall _ _) all_settings_ok s H). Qed.
(* C05 and C08 take the group structure of a tabulated setting in this form, C07 through every_setting_ok; P04_group.v says what
   group_ok_ops gives *)
Lemma setting_ops s : In s all_settings -> exists ops, ops_of (sg_rot s) (sg_trans s) = Some ops /\ group_ok_ops s ops = true.
Proof.
  intros H. apply every_setting_ok in H. unfold group_ok in H.
  destruct (ops_of (sg_rot s) (sg_trans s)) as [ops|]; [exists ops; split; [reflexivity | exact H] | discriminate].
Qed.
Lemma every_name_ok e : In e sg_byname -> name_ok e = true.
Proof. intros H. exact (proj1 (forallb_forall _ _) names_ok e H). Qed.

(* the normalisation done by sg.__init__ ignores whitespace and case: all variants of a key reach the same entry *)
Lemma normalise_app a b : sg_normalise (a ++ b) = (sg_normalise a ++ sg_normalise b)%string.
Proof. induction a as [|c a IH]; cbn; [reflexivity|]. destruct (is_ws c); cbn; rewrite IH; reflexivity. Qed.

Fixpoint all_ws (s : string) : bool :=
  match s with EmptyString => true | String c r => is_ws c && all_ws r end.
Lemma normalise_ws w : all_ws w = true -> sg_normalise w = EmptyString.
Proof. induction w as [|c w IH]; cbn; [reflexivity|]. intros H. apply andb_prop in H. destruct H as [H1 H2]. rewrite H1. auto. Qed.

Lemma normalise_insert_ws a w b : all_ws w = true -> sg_normalise (a ++ w ++ b) = sg_normalise (a ++ b).
Proof. intros H. rewrite !normalise_app, (normalise_ws w H). reflexivity. Qed.

Lemma lower_idem c : lower_ascii (lower_ascii c) = lower_ascii c.
Proof.
  destruct c as [[] [] [] [] [] [] [] []]; vm_compute; reflexivity.
Qed.
Lemma is_ws_lower c : is_ws (lower_ascii c) = is_ws c.
Proof. destruct c as [[] [] [] [] [] [] [] []]; vm_compute; reflexivity. Qed.

Fixpoint map_str (f : ascii -> ascii) (s : string) : string :=
  match s with EmptyString => EmptyString | String c r => String (f c) (map_str f r) end.
Definition upper_ascii (c : ascii) : ascii :=
  let n := nat_of_ascii c in if (Nat.leb 97 n && Nat.leb n 122)%bool then ascii_of_nat (n - 32) else c.
Lemma lower_upper c : lower_ascii (upper_ascii c) = lower_ascii c.
Proof. destruct c as [[] [] [] [] [] [] [] []]; vm_compute; reflexivity. Qed.
Lemma is_ws_upper c : is_ws (upper_ascii c) = is_ws c.
Proof. destruct c as [[] [] [] [] [] [] [] []]; vm_compute; reflexivity. Qed.

(* changing the case of any subset of characters does not change the normal form *)
Fixpoint recase (mask : list bool) (s : string) : string :=
  match s with
  | EmptyString => EmptyString
  | String c r => match mask with
                  | true :: m => String (upper_ascii c) (recase m r)
                  | false :: m => String (lower_ascii c) (recase m r)
                  | [] => String c (recase [] r)
                  end
  end.
Lemma normalise_recase mask s : sg_normalise (recase mask s) = sg_normalise s.
Proof.
  revert mask; induction s as [|c s IH]; intros mask; cbn; [reflexivity|].
  destruct mask as [|[] m]; cbn; rewrite ?is_ws_upper, ?is_ws_lower, ?lower_upper, ?lower_idem, IH; reflexivity.
Qed.
Lemma normalise_idem s : sg_normalise (sg_normalise s) = sg_normalise s.
Proof.
  induction s as [|c s IH]; cbn; [reflexivity|]. destruct (is_ws c) eqn:E; [exact IH|].
  cbn. rewrite is_ws_lower, E, lower_idem, IH. reflexivity.
Qed.
