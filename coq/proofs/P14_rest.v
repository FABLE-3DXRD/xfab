(* C14: the remaining traced functions, tools vs laue *)
From Coq Require Import Reals.
From XV Require Import Mat3 Cell Gen_laue Gen_tools P01_laue P14_cell P09_laue P09_plain P09_quart P09_tools P13_laue P13_ubi P13_old P13_tools.
Open Scope R_scope.

Lemma tl_tth c h wl : tools_tth c h wl = laue_tth c h wl.
Proof. reflexivity. Qed.

Lemma tl_tth2 g wl : vx g * vx g + vy g * vy g + vz g * vz g <> 0 ->
  tools_tth2 (vscale (2 * PI) g) wl = laue_tth2 g wl.
Proof.
  intros H. change (2 * asin (vnorm (vscale (2 * PI) g) * wl / (4 * PI)) = 2 * asin (wl / (2 * (1 / vnorm g)))).
  rewrite vnorm_vscale by (left; exact two_pi_pos).
  assert (N : vnorm g <> 0) by (intros Z; apply H, (sqrt_eq_0 _ (vnorm2_nonneg g) Z)).
  f_equal. f_equal. field. split; [exact N | exact PI_neq0].
Qed.

(* omega solvers: tools applied to the rescaled g equals laue applied to g *)
Lemma tl_find_omega_general g tth wx wy : vx g * vx g + vy g * vy g + vz g * vz g <> 0 ->
  tools_find_omega_general (normalise_to tth g) tth wx wy = laue_find_omega_general g tth wx wy.
Proof. intros Hg. rewrite tools_general_refines, laue_general_refines. reflexivity. Qed.
Lemma tl_find_omega_quart g tth wx wy :
  tools_find_omega_quart (normalise_to tth g) tth wx wy = laue_find_omega_quart g tth wx wy.
Proof. rewrite tools_quart_refines, laue_quart_refines. reflexivity. Qed.
Lemma tl_find_omega g tth : tools_find_omega (normalise_to tth g) tth = laue_find_omega g tth.
Proof. rewrite tools_plain_refines, laue_plain_refines. reflexivity. Qed.

(* B matrices of tools are 2 pi times those of laue *)
Lemma tl_b_to_epsilon B c : valid_cell c -> mdet B <> 0 ->
  tools_b_to_epsilon (mscale (2 * PI) B) c = laue_b_to_epsilon B c.
Proof.
  intros Hc HD. rewrite tools_b_to_epsilon_def, laue_b_to_epsilon_def, tl_form_b_mat by exact Hc.
  rewrite minv_mscale by (first [apply two_pi_nz | exact HD]).
  rewrite mmul_mscale_l, mmul_mscale_r, mscale_cancel by apply two_pi_nz. reflexivity.
Qed.

Lemma tl_epsilon_to_b eps c : valid_cell c -> strain_ok eps ->
  tools_epsilon_to_b eps c = mscale (2 * PI) (laue_epsilon_to_b eps c).
Proof.
  intros Hc Hs. pose proof (laue_B_upper_posdiag c Hc) as HB. pose proof HB as [_ (P0 & P1 & P2)].
  rewrite tools_epsilon_to_b_def, laue_epsilon_to_b_def, tl_form_b_mat by exact Hc.
  rewrite Tmat_scale by (first [apply two_pi_nz | apply Rgt_not_eq; assumption]).
  rewrite minv_mscale, Rinv_inv; [reflexivity | apply Rinv_neq_0_compat, two_pi_nz | apply Tmat_det; assumption].
Qed.

Lemma tools_epsilon_to_b_old_def eps c :
  tools_epsilon_to_b_old eps c = tools_form_b_mat (tools_a_to_cell (Amat (tools_form_a_mat_inv c) eps)).
Proof. reflexivity. Qed.

Lemma tl_epsilon_to_b_old eps c : valid_cell c -> strain_small eps ->
  tools_epsilon_to_b_old eps c = mscale (2 * PI) (laue_epsilon_to_b_old eps c).
Proof.
  intros Hc Hs. rewrite tools_epsilon_to_b_old_def, tl_a_to_cell, tl_form_a_mat_inv, laue_epsilon_to_b_old_def.
  apply tl_form_b_mat, laue_a_to_cell_valid, Rgt_not_eq, upper_posdiag_det, Amat_posdiag; [apply laue_a_inv_posdiag; exact Hc | exact Hs].
Qed.

Lemma tl_b_to_epsilon_old B c : tools_b_to_epsilon_old (mscale (2 * PI) B) c = laue_b_to_epsilon_old B c.
Proof.
  unfold tools_b_to_epsilon_old, laue_b_to_epsilon_old; cbv zeta.
  rewrite tl_b_to_cell, tl_form_a_mat, tl_form_a_mat_inv. reflexivity.
Qed.
