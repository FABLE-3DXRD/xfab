(* C12: Umis.  The generated one-operator misorientation (symmetry_Umis_one, traced from xfab.symmetry.Umis with a symbolic
   one-element rotation list) and its invariances; list-level statements for any operator list with index-permutation structure. *)
From Coq Require Import Reals Psatz Permutation.
From XV Require Import RealLib Mat3 Gen_symmetry.
Open Scope R_scope.

Definition clip1 (x : R) : R := if Rle_dec (-1) x then (if Rle_dec x 1 then x else 1) else -1.
Definition mis_len (U1 U2 Rm : M3) : R := (mtrace (mmul (mmul (mtrans U1) U2) (mtrans Rm)) - 1) / 2.

Lemma Umis_one_eq U1 U2 Rm : symmetry_Umis_one U1 U2 Rm = acos (clip1 (mis_len U1 U2 Rm)) * 180 / PI.
Proof.
  unfold symmetry_Umis_one; cbv zeta.
  match goal with |- context [Rle_dec (- 1) ?t] => replace t with (mis_len U1 U2 Rm) by (destruct U1, U2, Rm; unfold mis_len; mcbv; field) end.
  unfold clip1. destruct (Rle_dec (-1) _); [destruct (Rle_dec _ 1)|]; reflexivity.
Qed.

Lemma clip1_range x : -1 <= clip1 x <= 1.
Proof. unfold clip1. destruct (Rle_dec (-1) x); [destruct (Rle_dec x 1)|]; lra. Qed.
Lemma clip1_id x : -1 <= x <= 1 -> clip1 x = x.
Proof. intros H. unfold clip1. destruct (Rle_dec (-1) x); [destruct (Rle_dec x 1)|]; lra. Qed.

Lemma Umis_range U1 U2 Rm : 0 <= symmetry_Umis_one U1 U2 Rm <= 180.
Proof.
  rewrite Umis_one_eq. pose proof (acos_bound (clip1 (mis_len U1 U2 Rm))) as [A B]. pose proof PI_RGT_0 as P.
  split.
  - apply Rmult_le_pos; [nra | left; apply Rinv_0_lt_compat; lra].
  - apply (Rmult_le_reg_r PI); [lra|]. unfold Rdiv. rewrite Rmult_assoc, Rinv_l, Rmult_1_r by lra. nra.
Qed.

(* it is the rotation angle of U1' U2 R' : cos(angle) = (trace - 1)/2, when that lies in [-1, 1] *)
Lemma Umis_is_rotation_angle U1 U2 Rm : -1 <= mis_len U1 U2 Rm <= 1 ->
  cos (symmetry_Umis_one U1 U2 Rm * PI / 180) = (mtrace (mmul (mmul (mtrans U1) U2) (mtrans Rm)) - 1) / 2.
Proof.
  intros H. rewrite Umis_one_eq. pose proof PI_RGT_0.
  replace (acos (clip1 (mis_len U1 U2 Rm)) * 180 / PI * PI / 180) with (acos (clip1 (mis_len U1 U2 Rm))) by (field; lra).
  rewrite clip1_id, cos_acos by exact H. reflexivity.
Qed.

(* the angle depends on (U1, U2, R) through mis_len only; the invariances are identities between traces *)
Lemma Umis_of_len U1 U2 Rm V1 V2 Sm :
  mis_len U1 U2 Rm = mis_len V1 V2 Sm -> symmetry_Umis_one U1 U2 Rm = symmetry_Umis_one V1 V2 Sm.
Proof. intros E. rewrite !Umis_one_eq, E. reflexivity. Qed.

Lemma Umis_common Q U1 U2 Rm : is_rot Q -> symmetry_Umis_one (mmul Q U1) (mmul Q U2) Rm = symmetry_Umis_one U1 U2 Rm.
Proof. intros [HO _]. apply Umis_of_len. unfold mis_len. rewrite orth_gram by exact HO. reflexivity. Qed.
Lemma Umis_right U1 U2 Gj Rm : symmetry_Umis_one U1 (mmul U2 Gj) Rm = symmetry_Umis_one U1 U2 (mmul Rm (mtrans Gj)).
Proof. apply Umis_of_len. unfold mis_len. rewrite (mtrans_mmul Rm), mtrans_invol, <- !mmul_assoc. reflexivity. Qed.
Lemma Umis_left U1 U2 Gj Rm : symmetry_Umis_one (mmul U1 Gj) U2 Rm = symmetry_Umis_one U1 U2 (mmul Gj Rm).
Proof.
  apply Umis_of_len. unfold mis_len. rewrite (mtrans_mmul U1), (mtrans_mmul Gj). f_equal. f_equal.
  rewrite !mmul_assoc, mtrace_cyc, !mmul_assoc. reflexivity.
Qed.
Lemma Umis_swap U1 U2 Rm : symmetry_Umis_one U2 U1 Rm = symmetry_Umis_one U1 U2 (mtrans Rm).
Proof.
  apply Umis_of_len. unfold mis_len. f_equal. f_equal. rewrite mtrans_invol.
  rewrite <- mtrace_mtrans, !mtrans_mmul, !mtrans_invol, mtrace_cyc, mmul_assoc. reflexivity.
Qed.
Lemma Umis_self U : is_rot U -> symmetry_Umis_one U U mI = 0.
Proof.
  intros [HO _]. rewrite Umis_one_eq. unfold mis_len. rewrite HO, mtrans_I, mmul_I_l.
  replace ((mtrace mI - 1) / 2) with 1 by (unfold mtrace, mI; cbn; field).
  rewrite clip1_id, acos_1 by lra. field. apply PI_neq0.
Qed.

(* list level: the array returned by Umis is, column 1, [Umis_one U1 U2 R | R in G] *)
Definition umis_angles (G : list M3) (U1 U2 : M3) : list R := map (symmetry_Umis_one U1 U2) G.

(* if g permutes the operator list and the angle of (V1, V2) at R is that of (U1, U2) at g R, the two angle lists are
   permutations of each other; right and left multiplication by a group element and transposition are the three uses *)
Lemma umis_reindex G U1 U2 V1 V2 g :
  (forall Rm, symmetry_Umis_one V1 V2 Rm = symmetry_Umis_one U1 U2 (g Rm)) -> Permutation (map g G) G ->
  Permutation (umis_angles G V1 V2) (umis_angles G U1 U2).
Proof. intros E HP. unfold umis_angles. rewrite (map_ext _ _ E), <- map_map. apply Permutation_map; exact HP. Qed.

Lemma umis_common_eq G U1 U2 Q : is_rot Q -> umis_angles G (mmul Q U1) (mmul Q U2) = umis_angles G U1 U2.
Proof. intros H. unfold umis_angles. apply map_ext. intros Rm. apply Umis_common; exact H. Qed.

Lemma umis_self_zero G U : is_rot U -> In mI G -> In 0 (umis_angles G U U).
Proof. intros HU HI. unfold umis_angles. rewrite <- (Umis_self U HU). apply in_map. exact HI. Qed.
