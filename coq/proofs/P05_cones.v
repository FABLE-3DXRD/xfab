(* C05 / C06: the cone of a segment, seen from a matrix R, as three integer linear inequalities in h (computed from
   HklModel.in_region).  Two uses, for all of Z^3.  Covering: a checker (check) for certificates that the images of the cones of a
   segment table under a list of matrices cover Z^3 \ 0; a certificate is a decision tree over the signs of integer linear forms
   (tree); vlib/fdgen.py prints one per table (gen/P05_cov_all.v).  Uniqueness: h in one cone and h R in another forces h R = h
   and the same cone, one linear-arithmetic goal per (R, cone, cone) (gen/P06_fd.v). *)
From Coq Require Import ZArith List Bool Lia.
From XV Require Import SGroup HklModel Traverse SGFacts P05.
Import ListNotations.
Open Scope Z_scope.

(* (a, b) stands for 0 <= a.h + b *)
Definition ineq := (hkl * Z)%type.
Definition sat (h : hkl) (c : ineq) : Prop := 0 <= dot3z (fst c) h + snd c.

Lemma dot3z_0_l h : dot3z (0, 0, 0) h = 0.
Proof. destruct h as [[? ?] ?]. reflexivity. Qed.
Lemma dot3z_hadd a b h : dot3z (hadd a b) h = dot3z a h + dot3z b h.
Proof. destruct a as [[? ?] ?], b as [[? ?] ?], h as [[? ?] ?]. unfold dot3z, hadd. ring. Qed.
Lemma dot3z_hscale k a h : dot3z (hscale k a) h = k * dot3z a h.
Proof. destruct a as [[? ?] ?], h as [[? ?] ?]. unfold dot3z, hscale. ring. Qed.

(* the coordinates of x - start along the three directions, as HklModel.in_region computes them (P05.in_region_spec) *)
Definition coords (seg : list (list Z)) (x : hkl) : hkl :=
  let c := vec3 (nth 0 seg []) in let d1 := vec3 (nth 1 seg []) in let d2 := vec3 (nth 2 seg []) in let d3 := vec3 (nth 3 seg []) in
  hscale (det3 d1 d2 d3) (cof c d1 d2 d3 x).
Definition unimodular (seg : list (list Z)) : bool :=
  let D := det3 (vec3 (nth 1 seg [])) (vec3 (nth 2 seg [])) (vec3 (nth 3 seg [])) in D * D =? 1.

(* the coordinates of h R are affine in h: read the coefficients off the values at 0 and at the unit vectors *)
Definition cone_ineqs (seg : list (list Z)) (R : mat) : list ineq :=
  let F h := coords seg (vmZ h R) in
  let '(p0, q0, r0) := F (0, 0, 0) in
  let '(p1, q1, r1) := F (1, 0, 0) in
  let '(p2, q2, r2) := F (0, 1, 0) in
  let '(p3, q3, r3) := F (0, 0, 1) in
  [((p1 - p0, p2 - p0, p3 - p0), p0); ((q1 - q0, q2 - q0, q3 - q0), q0); ((r1 - r0, r2 - r0, r3 - r0), r0)].

Lemma cone_ineqs_spec seg R h :
  map (fun c => dot3z (fst c) h + snd c) (cone_ineqs seg R) = let '(p, q, r) := coords seg (vmZ h R) in [p; q; r].
Proof.
  unfold cone_ineqs, coords. cbv zeta.
  destruct (vec3 (nth 0 seg [])) as [[sx sy] sz], (vec3 (nth 1 seg [])) as [[a1 a2] a3],
           (vec3 (nth 2 seg [])) as [[b1 b2] b3], (vec3 (nth 3 seg [])) as [[c1 c2] c3],
           R as [[[[[[[[r11 r12] r13] r21] r22] r23] r31] r32] r33], h as [[x y] z].
  set (D := det3 _ _ _). cbv beta iota zeta delta [vmZ cof hscale fst snd map dot3z].
  f_equal; [|f_equal; [|f_equal]]; ring.
Qed.

Lemma cone_ineqs_iff seg R h : unimodular seg = true -> (Forall (sat h) (cone_ineqs seg R) <-> in_region seg (vmZ h R) = true).
Proof.
  unfold unimodular. cbv zeta. rewrite Z.eqb_eq. intros HD. rewrite in_region_spec. fold (coords seg (vmZ h R)).
  rewrite <- (Forall_map (fun c => dot3z (fst c) h + snd c) (Z.le 0)), cone_ineqs_spec.
  destruct (coords seg (vmZ h R)) as [[p q] r]. split.
  - intros H. split; [exact HD|]. exists p, q, r. inversion_clear H as [|? ? Hp H']. inversion_clear H' as [|? ? Hq H]. inversion_clear H as [|? ? Hr _]. auto.
  - intros [_ (a & k & m & Ha & Hk & Hm & E)]. injection E as -> -> ->. repeat constructor; assumption.
Qed.

Lemma unimodular_of_start seg : in_region seg (vec3 (nth 0 seg [])) = true -> unimodular seg = true.
Proof. intros H. apply in_region_spec in H. apply Z.eqb_eq. exact (proj1 H). Qed.

(* on the way down a certificate the sign conditions are collected as inequalities; what these imply without holding it literally
   is added as a non-negative combination of them (Farkas multipliers) *)
Inductive tree :=
| Split (k : nat) (neg zero pos : tree)   (* the sign of a.h, for the k-th form a of the certificate *)
| Infer (lam : list Z) (t : tree)         (* add the combination of the collected inequalities with multipliers lam (newest first) *)
| Leaf (k : nat)                          (* h R lies in the cone of seg, for the k-th pair (R, seg) *)
| Origin.                                 (* no h but 0 is left: the collected inequalities include 0 <= -1 or pin x, y and z to 0 *)

(* an inequality follows from the context if the context holds one with the same form and a constant at most as large *)
Definition implied (ctx : list ineq) (c : ineq) : bool :=
  existsb (fun d => hkl_eqb (fst d) (fst c) && (snd d <=? snd c)) ctx.

Lemma implied_sat h ctx c : Forall (sat h) ctx -> implied ctx c = true -> sat h c.
Proof.
  intros Hctx H. apply existsb_exists in H. destruct H as (d & Hd & H). apply andb_prop in H. destruct H as [Ea Eb].
  apply hkl_eqb_spec in Ea. apply Z.leb_le in Eb. rewrite Forall_forall in Hctx. specialize (Hctx d Hd).
  unfold sat in *. rewrite <- Ea. lia.
Qed.

Lemma implied_all h ctx l : Forall (sat h) ctx -> forallb (implied ctx) l = true -> Forall (sat h) l.
Proof. intros Hctx H. apply Forall_forall. intros c Hc. rewrite forallb_forall in H. exact (implied_sat h ctx c Hctx (H c Hc)). Qed.

Fixpoint combine_ineqs (ctx : list ineq) (lam : list Z) : ineq :=
  match ctx, lam with
  | (a, b) :: ctx', l :: lam' => let '(a', b') := combine_ineqs ctx' lam' in (hadd (hscale l a) a', l * b + b')
  | _, _ => ((0, 0, 0), 0)
  end.

Lemma combine_sat h ctx : Forall (sat h) ctx -> forall lam, forallb (Z.leb 0) lam = true -> sat h (combine_ineqs ctx lam).
Proof.
  induction 1 as [|[a b] ctx Hc _ IH]; intros [|l lam] Hl; cbn [combine_ineqs]; try (unfold sat; rewrite dot3z_0_l; cbn; lia).
  cbn in Hl. apply andb_prop in Hl. destruct Hl as [Hl Hlam]. apply Z.leb_le in Hl. specialize (IH lam Hlam).
  destruct (combine_ineqs ctx lam) as [a' b']. unfold sat in *. cbn [fst snd] in *. rewrite dot3z_hadd, dot3z_hscale.
  pose proof (Z.mul_nonneg_nonneg l _ Hl Hc). lia.
Qed.

Definition at_origin : list ineq :=
  [((1, 0, 0), 0); ((-1, 0, 0), 0); ((0, 1, 0), 0); ((0, -1, 0), 0); ((0, 0, 1), 0); ((0, 0, -1), 0)].

Section Check.
Variable L : list mat.
Variable segs : list (list (list Z)).
Variable forms : list hkl.

Fixpoint check (ctx : list ineq) (t : tree) : bool :=
  match t with
  | Split k tn tz tp =>
      let a := nth k forms (0, 0, 0) in
      check ((hneg a, -1) :: ctx) tn && check ((a, 0) :: (hneg a, 0) :: ctx) tz && check ((a, -1) :: ctx) tp
  | Infer lam t' => forallb (Z.leb 0) lam && check (combine_ineqs ctx lam :: ctx) t'
  | Leaf k =>
      match nth_error (list_prod L segs) k with
      | Some (R, seg) => unimodular seg && forallb (implied ctx) (cone_ineqs seg R)
      | None => false
      end
  | Origin => implied ctx ((0, 0, 0), -1) || forallb (implied ctx) at_origin
  end.

Lemma check_sound h : h <> (0, 0, 0) -> forall t ctx, check ctx t = true -> Forall (sat h) ctx ->
  exists R seg, In R L /\ In seg segs /\ in_cone seg (vmZ h R).
Proof.
  intros Hh. induction t as [k tn IHn tz IHz tp IHp|lam t IH|k|]; intros ctx H Hctx; cbn [check] in H.
  - set (a := nth k forms (0, 0, 0)) in H. cbv zeta in H. apply andb_prop in H. destruct H as [H Hp]. apply andb_prop in H. destruct H as [Hn Hz].
    assert (N : dot3z (hneg a) h = - dot3z a h) by apply dot3z_hneg.
    destruct (Z.lt_trichotomy (dot3z a h) 0) as [C|[C|C]].
    + apply (IHn _ Hn). constructor; [unfold sat; cbn [fst snd]; lia | exact Hctx].
    + apply (IHz _ Hz). constructor; [|constructor]; [unfold sat; cbn [fst snd]; lia .. | exact Hctx].
    + apply (IHp _ Hp). constructor; [unfold sat; cbn [fst snd]; lia | exact Hctx].
  - apply andb_prop in H. destruct H as [Hl H]. apply (IH _ H). constructor; [exact (combine_sat h ctx Hctx lam Hl) | exact Hctx].
  - destruct (nth_error (list_prod L segs) k) as [[R seg]|] eqn:E; [|discriminate].
    apply nth_error_In, in_prod_iff in E. apply andb_prop in H. destruct H as [Hu H]. exists R, seg.
    split; [exact (proj1 E)|]. split; [exact (proj2 E)|].
    exact (in_region_cone _ _ (proj1 (cone_ineqs_iff seg R h Hu) (implied_all h ctx _ Hctx H))).
  - exfalso. apply orb_prop in H. destruct H as [H|H].
    { apply (implied_sat h ctx _ Hctx) in H. unfold sat in H. rewrite dot3z_0_l in H. cbn in H. lia. }
    apply Hh. pose proof (implied_all h ctx _ Hctx H) as S.
    destruct h as [[x y] z]. unfold at_origin in S. repeat (inversion_clear S as [|? ? ? S']; rename S' into S).
    unfold sat, dot3z in *. cbn [fst snd] in *. f_equal; [f_equal|]; lia.
Qed.
End Check.

Theorem cover_sound L segs forms t : check L segs forms [] t = true -> forall x y z, (x <> 0 \/ y <> 0 \/ z <> 0) ->
  exists R seg, In R L /\ In seg segs /\ in_cone seg (vmZ (x, y, z) R).
Proof.
  intros H x y z Hne. exact (check_sound L segs forms (x, y, z) (proj2 (hkl_nz x y z) Hne) t [] H (Forall_nil _)).
Qed.

(* a table of (key, matrices, segments) against a list of certificates (forms, tree), one per row *)
Fixpoint check_table {A} (tab : list (A * list mat * list (list (list Z)))) (certs : list (list hkl * tree)) : bool :=
  match tab, certs with
  | [], _ => true
  | e :: tab', c :: certs' => check (snd (fst e)) (snd e) (fst c) [] (snd c) && check_table tab' certs'
  | _ :: _, [] => false
  end.

Theorem cover_table_sound {A} (tab : list (A * list mat * list (list (list Z)))) certs : check_table tab certs = true ->
  forall e, In e tab -> forall x y z, (x <> 0 \/ y <> 0 \/ z <> 0) ->
  exists R seg, In R (snd (fst e)) /\ In seg (snd e) /\ in_cone seg (vmZ (x, y, z) R).
Proof.
  revert certs; induction tab as [|e0 tab IH]; intros certs H e He; [destruct He|].
  destruct certs as [|t certs]; [discriminate|]. cbn [check_table] in H. apply andb_prop in H. destruct H as [H0 H].
  destruct He as [<-|He]; [exact (cover_sound _ _ _ _ H0) | exact (IH certs H e He)].
Qed.

(* R carries no point of the cone of s1 into the cone of s2, except a point it fixes when the two are the same cone *)
Definition fd_pair (R : mat) (s1 s2 : list (list Z)) : Prop :=
  forall h, Forall (sat h) (cone_ineqs s1 mI9) -> Forall (sat h) (cone_ineqs s2 R) -> vmZ h R = h /\ s1 = s2.

Lemma fd_unique_gen (G : list mat) (S : list (list (list Z))) :
  unimodular_segs S = true ->
  Forall (fun R => Forall (fun s1 => Forall (fun s2 => fd_pair R s1 s2) S) S) G ->
  forall R seg1 seg2 x y z, In R G -> In seg1 S -> In seg2 S ->
  in_cone seg1 (x, y, z) -> in_cone seg2 (vmZ (x, y, z) R) -> vmZ (x, y, z) R = (x, y, z) /\ seg1 = seg2.
Proof.
  intros HU HF R seg1 seg2 x y z HR H1 H2 C1 C2. unfold unimodular_segs in HU. rewrite forallb_forall in HU.
  rewrite Forall_forall in HF. specialize (HF R HR). rewrite Forall_forall in HF. specialize (HF seg1 H1).
  rewrite Forall_forall in HF. specialize (HF seg2 H2).
  apply HF; apply cone_ineqs_iff; auto using unimodular_of_start; rewrite ?vmZ_I; apply cone_region; auto.
Qed.

Theorem fd_table_unique_gen {A} (tab : list (A * list mat * list (list (list Z)))) :
  forallb (fun e => unimodular_segs (snd e)) tab = true ->
  Forall (fun e => Forall (fun R => Forall (fun s1 => Forall (fun s2 => fd_pair R s1 s2) (snd e)) (snd e)) (snd (fst e))) tab ->
  forall e, In e tab -> forall R seg1 seg2 x y z, In R (snd (fst e)) -> In seg1 (snd e) -> In seg2 (snd e) ->
  in_cone seg1 (x, y, z) -> in_cone seg2 (vmZ (x, y, z) R) -> vmZ (x, y, z) R = (x, y, z) /\ seg1 = seg2.
Proof.
  intros HU HF e He. apply fd_unique_gen; [exact (proj1 (forallb_forall _ _) HU e He) | exact (proj1 (Forall_forall _ _) HF e He)].
Qed.

(* one goal of gen/P06_fd.v: the six inequalities computed and written out as a conjunction, then linear arithmetic *)
Fixpoint all_sat (h : hkl) (l : list ineq) : Prop :=
  match l with [] => True | c :: r => 0 <= dot3z (fst c) h + snd c /\ all_sat h r end.
Lemma Forall_all_sat h l : Forall (sat h) l -> all_sat h l.
Proof. induction 1; cbn; auto. Qed.

Lemma fd_pair_intro R s1 s2 I1 I2 : cone_ineqs s1 mI9 = I1 -> cone_ineqs s2 R = I2 ->
  (forall x y z, all_sat (x, y, z) I1 -> all_sat (x, y, z) I2 -> vmZ (x, y, z) R = (x, y, z) /\ s1 = s2) -> fd_pair R s1 s2.
Proof. intros <- <- H [[x y] z] H1 H2. apply H; apply Forall_all_sat; assumption. Qed.

Ltac fd_all :=
  repeat first [apply Forall_nil | apply Forall_cons];
  (eapply fd_pair_intro; [vm_compute; reflexivity | vm_compute; reflexivity |];
   cbv beta iota delta [all_sat dot3z fst snd vmZ]; intros ? ? ? (? & ? & ? & _) (? & ? & ? & _);
   first [ split; [|reflexivity]; f_equal; [f_equal|]; lia | exfalso; lia ]).
