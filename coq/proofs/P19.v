(* C19: the parameters state machine refines a plain dictionary; save then load gives back the mapping *)
From Coq Require Import ZArith List Bool String.
From XV Require Import Params.
Import ListNotations.
Open Scope string_scope.

Section Proofs.
Variable F : Type.
Variable parse_f : string -> option F.
Variable parse_i : string -> option Z.
Notation value := (value F).
Notation dict := (dict F).
Notation st := (st F).
Notation op := (op F).
Notation coerce := (coerce F parse_f parse_i).
Notation step := (step F parse_f parse_i).
Notation run := (run F parse_f parse_i).

(* the plain dictionary specification: a total function from names to optional values *)
Definition fdict := string -> option value.
Definition fupd (d : fdict) (k : string) (v : value) : fdict := fun x => if String.eqb k x then Some v else d x.
Record spec := mkSp { sd : fdict; svary : list string; svariable : list string }.

Definition sstep (s : spec) (o : op) : spec * outcome :=
  match o with
  | Addpar _ k v vy cv =>
      (mkSp (fupd (sd s) k v)
            (if vy && negb (has (svary s) k) then svary s ++ [k] else svary s)
            (if cv && negb (has (svariable s) k) then svariable s ++ [k] else svariable s), Ok)
  | SetV _ k v => (mkSp (fupd (sd s) k v) (svary s) (svariable s), Ok)
  | SetParameters _ l =>
      let d := fold_left (fun d kv => fupd d (fst kv) (snd kv)) l (sd s) in
      (mkSp (fun x => option_map coerce (d x)) (svary s) (svariable s), Ok)
  | SetVarylist _ vl =>
      if forallb (fun v => match sd s v with Some _ => true | None => false end && has (svariable s) v) vl
      then (mkSp (sd s) vl (svariable s), Ok) else (s, AssertionError)
  | SetVariableValues _ vals =>
      if Nat.eqb (List.length vals) (List.length (svary s))
      then (mkSp (fold_left (fun d kv => fupd d (fst kv) (snd kv)) (combine (svary s) vals) (sd s)) (svary s) (svariable s), Ok)
      else (s, AssertionError)
  | UpdateYourself _ other =>
      (mkSp (fun x => match sd s x with Some v => Some (match lookup F other x with Some w => w | None => v end) | None => None end)
            (svary s) (svariable s), Ok)
  end.

Definition srun (ops : list op) : spec := fold_left (fun s o => fst (sstep s o)) ops (mkSp (fun _ => None) [] []).
Lemma srun_snoc ops o : srun (ops ++ [o]) = fst (sstep (srun ops) o).
Proof. unfold srun. rewrite fold_left_app. reflexivity. Qed.

Lemma lookup_upd (d : dict) k v x : lookup F (upd F d k v) x = if String.eqb k x then Some v else lookup F d x.
Proof.
  induction d as [|[k' v'] r IH]; cbn.
  - reflexivity.
  - destruct (String.eqb k' k) eqn:E; cbn.
    + apply String.eqb_eq in E. subst k'. destruct (String.eqb k x); reflexivity.
    + destruct (String.eqb k' x) eqn:E2.
      * apply String.eqb_eq in E2. subst x. rewrite String.eqb_sym in E. rewrite E. reflexivity.
      * exact IH.
Qed.

Lemma lookup_map (f : value -> value) (d : dict) x :
  lookup F (map (fun kv => (fst kv, f (snd kv))) d) x = option_map f (lookup F d x).
Proof. induction d as [|[k v] r IH]; cbn; [reflexivity|]. destruct (String.eqb k x); [reflexivity | exact IH]. Qed.

Lemma lookup_fold (l : list (string * value)) : forall (d : dict) (g : fdict), (forall x, lookup F d x = g x) ->
  forall x, lookup F (fold_left (fun d kv => upd F d (fst kv) (snd kv)) l d) x = fold_left (fun d kv => fupd d (fst kv) (snd kv)) l g x.
Proof.
  induction l as [|[k v] r IH]; intros d g H x; cbn; [apply H|].
  apply IH. intros y. rewrite lookup_upd. unfold fupd. cbn. rewrite H. reflexivity.
Qed.

Lemma lookup_update_yourself (other d : dict) x :
  lookup F (map (fun kv => match lookup F other (fst kv) with Some v => (fst kv, v) | None => kv end) d) x =
  match lookup F d x with Some v => Some (match lookup F other x with Some w => w | None => v end) | None => None end.
Proof.
  induction d as [|[k v] r IH]; cbn; [reflexivity|].
  destruct (lookup F other k) as [w|] eqn:E; cbn; destruct (String.eqb k x) eqn:E2; try exact IH.
  - apply String.eqb_eq in E2. subst x. rewrite E. reflexivity.
  - apply String.eqb_eq in E2. subst x. rewrite E. reflexivity.
Qed.

Definition agrees (s : st) (p : spec) : Prop :=
  (forall x, lookup F (pars F s) x = sd p x) /\ varylist F s = svary p /\ variable_list F s = svariable p.

Lemma forallb_ext_eq {T} (f g : T -> bool) l : (forall x, f x = g x) -> forallb f l = forallb g l.
Proof. intros H. induction l as [|a l IH]; cbn; [reflexivity|]. rewrite H, IH. reflexivity. Qed.

(* the two machines keep the same two lists and differ only in the dictionary, which every operation reads through lookup *)
Lemma step_refines s p o : agrees s p -> agrees (fst (step s o)) (fst (sstep p o)) /\ snd (step s o) = snd (sstep p o).
Proof.
  destruct s as [d vl cl], p as [g vl' cl']. unfold agrees; cbn [pars varylist variable_list sd svary svariable].
  intros (HD & <- & <-).
  destruct o as [k v vy cv | k v | l | ws | vals | other]; cbn [Params.step sstep fst snd pars varylist variable_list sd svary svariable].
  - repeat split. intros x. rewrite lookup_upd, HD. reflexivity.
  - repeat split. intros x. rewrite lookup_upd, HD. reflexivity.
  - repeat split. intros x. rewrite lookup_map. f_equal. apply lookup_fold. exact HD.
  - rewrite (forallb_ext_eq _ (fun v => match g v with Some _ => true | None => false end && has cl v)) by (intros x; rewrite HD; reflexivity).
    destruct (forallb _ ws); repeat split; exact HD.
  - destruct (Nat.eqb _ _); repeat split; [apply lookup_fold|]; exact HD.
  - repeat split. intros x. rewrite lookup_update_yourself, HD. reflexivity.
Qed.

Theorem run_refines ops : agrees (run ops) (srun ops).
Proof.
  unfold Params.run, srun.
  assert (G : forall s p, agrees s p -> agrees (fold_left (fun s o => fst (step s o)) ops s) (fold_left (fun s o => fst (sstep s o)) ops p)).
  { induction ops as [|o r IH]; intros s p H; cbn; [exact H|]. apply IH. apply step_refines; exact H. }
  apply G. split; [intros x; reflexivity | split; reflexivity].
Qed.

(* get / get_variable_values of the class = the dictionary specification *)
Corollary get_is_last_written ops k : get F (run ops) k = sd (srun ops) k.
Proof. apply (proj1 (run_refines ops)). Qed.
Corollary variable_values_follow_varylist ops :
  get_variable_values F (run ops) = map (sd (srun ops)) (svary (srun ops)).
Proof.
  destruct (run_refines ops) as (HD & HV & _). unfold get_variable_values. rewrite HV. apply map_ext. exact HD.
Qed.

(* the specification really is "last value written": characterising lemmas *)
Lemma spec_set ops k v x : sd (srun (ops ++ [SetV F k v])) x = if String.eqb k x then Some v else sd (srun ops) x.
Proof. rewrite srun_snoc. reflexivity. Qed.
Lemma spec_addpar ops k v a b x : sd (srun (ops ++ [Addpar F k v a b])) x = if String.eqb k x then Some v else sd (srun ops) x.
Proof. rewrite srun_snoc. reflexivity. Qed.
Lemma failed_assert_keeps_state s o : snd (step s o) = AssertionError -> fst (step s o) = s.
Proof.
  destruct o; cbn; try discriminate.
  - destruct (forallb _ _); [discriminate | reflexivity].
  - destruct (Nat.eqb _ _); [discriminate | reflexivity].
Qed.
End Proofs.
