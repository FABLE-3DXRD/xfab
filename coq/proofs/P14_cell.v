(* C14 (cell algebra part): generated tools definitions vs generated laue definitions *)
From Coq Require Import Reals Psatz.
From XV Require Import Mat3 Cell Gen_laue Gen_tools P01_laue.
Open Scope R_scope.

Lemma two_pi_pos : 0 < 2 * PI.
Proof. pose proof PI_RGT_0; lra. Qed.
Lemma two_pi_nz : 2 * PI <> 0.
Proof. pose proof PI_RGT_0; lra. Qed.

Lemma tl_cell_volume c : tools_cell_volume c = laue_cell_volume c.
Proof. reflexivity. Qed.
Lemma tl_cell_invert c : tools_cell_invert c = laue_cell_invert c.
Proof. reflexivity. Qed.
Lemma tl_form_a_mat c : tools_form_a_mat c = laue_form_a_mat c.
Proof. reflexivity. Qed.
Lemma tl_form_a_mat_inv c : tools_form_a_mat_inv c = laue_form_a_mat_inv c.
Proof. reflexivity. Qed.
Lemma tl_a_to_cell A : tools_a_to_cell A = laue_a_to_cell A.
Proof. reflexivity. Qed.
Lemma tl_sintl c h : tools_sintl c h = laue_sintl c h.
Proof. reflexivity. Qed.
Lemma tl_ubi_to_cell A : tools_ubi_to_cell A = laue_ubi_to_cell A.
Proof. reflexivity. Qed.

Lemma tl_form_b_mat c : valid_cell c -> tools_form_b_mat c = mscale (2 * PI) (laue_form_b_mat c).
Proof.
  intros H. pose proof (laue_volume_pos c H) as VP. destruct (valid_cell_pos c H) as ((Ha & Hb & Hc) & (S3 & S4 & S5) & _).
  unfold tools_form_b_mat, laue_form_b_mat; cbv zeta.
  rewrite tl_cell_volume. set (V := laue_cell_volume c) in *. clearbody V.
  unfold mscale; cbn [m00 m01 m02 m10 m11 m12 m20 m21 m22].
  f_equal; field; repeat split; apply Rgt_not_eq; assumption.
Qed.

(* where tools divides or multiplies a matrix entry by entry by a constant, it is mscale *)
Lemma mk_scale_r A k :
  mkM3 (m00 A * k) (m01 A * k) (m02 A * k) (m10 A * k) (m11 A * k) (m12 A * k) (m20 A * k) (m21 A * k) (m22 A * k) = mscale k A.
Proof. mat_ring. Qed.

Lemma tools_b_to_cell_def B : tools_b_to_cell B = laue_b_to_cell (mscale (/ (2 * PI)) B).
Proof. rewrite <- mk_scale_r. reflexivity. Qed.

Lemma tl_b_to_cell B : tools_b_to_cell (mscale (2 * PI) B) = laue_b_to_cell B.
Proof. rewrite tools_b_to_cell_def, mscale_cancel_inv by apply two_pi_nz. reflexivity. Qed.
