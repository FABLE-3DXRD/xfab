(* C03 for xfab.laue: rotation constructors (generated) equal the documented compositions, are proper rotations,
   Rodrigues round trips *)
From Coq Require Import Reals Psatz.
From XV Require Import RealLib Mat3 Gen_laue.
Open Scope R_scope.

Lemma laue_euler_comp p1 P p2 : laue_euler_to_u p1 P p2 = mmul (Rz p1) (mmul (Rx P) (Rz p2)).
Proof. unfold laue_euler_to_u, Rz, Rx; cbv zeta. mat_ring. Qed.
Lemma laue_euler_rot p1 P p2 : is_rot (laue_euler_to_u p1 P p2).
Proof. rewrite laue_euler_comp. repeat apply rot_mmul; auto using rot_Rx, rot_Rz. Qed.

Lemma laue_omega_comp w : laue_form_omega_mat w = Rz w.
Proof. reflexivity. Qed.
Lemma laue_omega_rot w : is_rot (laue_form_omega_mat w).
Proof. rewrite laue_omega_comp. apply rot_Rz. Qed.

Lemma laue_omega_general_comp w chi wedge :
  laue_form_omega_mat_general w chi wedge = mmul (Rx chi) (mmul (Ry wedge) (Rz w)).
Proof. unfold laue_form_omega_mat_general, laue_form_omega_mat, Rz, Rx, Ry; cbv zeta. mat_ring. Qed.
Lemma laue_omega_general_rot w chi wedge : is_rot (laue_form_omega_mat_general w chi wedge).
Proof. rewrite laue_omega_general_comp. repeat apply rot_mmul; auto using rot_Rx, rot_Ry, rot_Rz. Qed.

Lemma laue_tilt_comp tx ty tz : laue_detect_tilt tx ty tz = mmul (Rx tx) (mmul (Ry ty) (Rz tz)).
Proof. unfold laue_detect_tilt, Rz, Rx, Ry; cbv zeta. mat_ring. Qed.
Lemma laue_tilt_rot tx ty tz : is_rot (laue_detect_tilt tx ty tz).
Proof. rewrite laue_tilt_comp. repeat apply rot_mmul; auto using rot_Rx, rot_Ry, rot_Rz. Qed.

(* quaternion omega: P Rz(w) P' with P = Rx(wx) Ry(wy); w in degrees *)
Lemma laue_quart_comp w wx wy :
  laue_quart_to_omega w wx wy =
  mmul (mmul (Rx wx) (Ry wy)) (mmul (Rz (w * PI / 180)) (mtrans (mmul (Rx wx) (Ry wy)))).
Proof.
  replace (w * PI / 180) with (2 * (w * PI / 360)) by field.
  unfold laue_quart_to_omega, Rz, Rx, Ry; cbv zeta.
  rewrite cos_2a_sin, sin_2a.
  set (h := w * PI / 360).
  assert (Hh : sin h * sin h = 1 - cos h * cos h) by (pose proof (sc1 h); lra).
  assert (Hx : sin wx * sin wx = 1 - cos wx * cos wx) by (pose proof (sc1 wx); lra).
  assert (Hy : sin wy * sin wy = 1 - cos wy * cos wy) by (pose proof (sc1 wy); lra).
  set (sh := sin h) in *; set (ch := cos h) in *; set (sx := sin wx) in *; set (cx := cos wx) in *;
  set (sy := sin wy) in *; set (cy := cos wy) in *. clearbody sh ch sx cx sy cy.
  mcbv. cbn [Rpow_def.pow]. f_equal; ring [Hh Hx Hy].
Qed.
Lemma laue_quart_rot w wx wy : is_rot (laue_quart_to_omega w wx wy).
Proof.
  rewrite laue_quart_comp. assert (P : is_rot (mmul (Rx wx) (Ry wy))) by (apply rot_mmul; auto using rot_Rx, rot_Ry).
  apply rot_mmul; [exact P|]. apply rot_mmul; [apply rot_Rz | apply rot_mtrans; exact P].
Qed.

Definition rod_spec (r : V3) : M3 :=
  let n := vnorm2 r in
  let x := vx r in let y := vy r in let z := vz r in
  mscale (/ (1 + n))
    (mkM3 (1 - n + 2 * x * x) (2 * x * y + 2 * z) (2 * x * z - 2 * y)
          (2 * x * y - 2 * z) (1 - n + 2 * y * y) (2 * y * z + 2 * x)
          (2 * x * z + 2 * y) (2 * y * z - 2 * x) (1 - n + 2 * z * z)).

Lemma norm_pos r : 0 < 1 + vnorm2 r.
Proof. pose proof (vnorm2_nonneg r). lra. Qed.

Lemma laue_rod_spec r : laue_rod_to_u r = rod_spec r.
Proof.
  pose proof (norm_pos r) as N. destruct r as [x y z]. unfold laue_rod_to_u, rod_spec; cbv zeta. munfold.
  f_equal; field; lra.
Qed.

Lemma laue_rod_rot r : is_rot (laue_rod_to_u r).
Proof.
  rewrite laue_rod_spec. pose proof (norm_pos r) as N. destruct r as [x y z]. unfold rod_spec; cbv zeta.
  mcbv. cbv [vnorm2 vdot vx vy vz] in N. split; [f_equal|]; field; lra.
Qed.

Lemma laue_rod_axis r : mvmul (laue_rod_to_u r) r = r.
Proof.
  rewrite laue_rod_spec. pose proof (norm_pos r) as N. destruct r as [x y z]. unfold rod_spec; cbv zeta. munfold.
  f_equal; field; lra.
Qed.

Lemma laue_rod_trace r : mtrace (laue_rod_to_u r) = (3 - vnorm2 r) / (1 + vnorm2 r).
Proof.
  rewrite laue_rod_spec. pose proof (norm_pos r) as N. destruct r as [x y z]. unfold rod_spec; cbv zeta. munfold.
  field; lra.
Qed.

Lemma cos_sin_2atan t : cos (2 * atan t) = (1 - t * t) / (1 + t * t) /\ sin (2 * atan t) = 2 * t / (1 + t * t).
Proof.
  rewrite cos_2a, sin_2a, cos_atan, sin_atan. unfold Rsqr.
  assert (P : 0 < 1 + t * t) by nra. assert (S := sqrt_sqrt (1 + t * t) (Rlt_le _ _ P)).
  assert (Q : 0 < sqrt (1 + t * t)) by (apply sqrt_lt_R0; exact P).
  set (q := sqrt (1 + t * t)) in *. clearbody q.
  split; (field_simplify_eq; [nsatz_R | split; lra]).
Qed.

(* the rotation angle is 2 atan |r| : trace = 1 + 2 cos(angle) *)
Lemma laue_rod_angle r : mtrace (laue_rod_to_u r) = 1 + 2 * cos (2 * atan (vnorm r)).
Proof.
  rewrite laue_rod_trace, (proj1 (cos_sin_2atan _)). unfold vnorm. rewrite sqrt_sqrt by apply vnorm2_nonneg.
  pose proof (norm_pos r). field. lra.
Qed.

(* passive sense: for r along z the matrix is the transpose of the active rotation by 2 atan t *)
Lemma laue_rod_passive t : laue_rod_to_u (mkV3 0 0 t) = mtrans (Rz (2 * atan t)).
Proof.
  rewrite laue_rod_spec. unfold rod_spec, Rz; cbv zeta. destruct (cos_sin_2atan t) as [-> ->]. munfold.
  assert (0 < 1 + t * t) by nra. f_equal; field; lra.
Qed.

Lemma laue_u_to_rod_inv r : vnorm2 r < 1000000000000000 -> laue_u_to_rod (laue_rod_to_u r) = Some r.
Proof.
  intros B. pose proof (norm_pos r) as N. pose proof (vnorm2_nonneg r) as NN.
  unfold laue_u_to_rod; cbv zeta.
  assert (T : 1 + m00 (laue_rod_to_u r) + m11 (laue_rod_to_u r) + m22 (laue_rod_to_u r) = 4 / (1 + vnorm2 r)).
  { transitivity (1 + mtrace (laue_rod_to_u r)); [unfold mtrace; ring | rewrite laue_rod_trace; field; lra]. }
  rewrite T.
  destruct (Rlt_dec _ _) as [L|L].
  - exfalso. rewrite Rabs_right in L by (apply Rle_ge; apply Rlt_le; apply Rdiv_lt_0_compat; lra).
    assert (4 / (1 + vnorm2 r) * (1 + vnorm2 r) = 4) by (field; lra). nra.
  - f_equal. rewrite laue_rod_spec. destruct r as [x y z]. unfold rod_spec in *; cbv zeta. munfold.
    f_equal; field; lra.
Qed.

(* (t; x, y, z) below is 4 q0 times the unit quaternion (q0; q) of U, so the products of its components are linear in the entries *)
Lemma rot_axial U : is_rot U ->
  let t := 1 + m00 U + m11 U + m22 U in
  let x := m12 U - m21 U in let y := m20 U - m02 U in let z := m01 U - m10 U in
  x * x = (1 + m00 U - m11 U - m22 U) * t /\ y * y = (1 - m00 U + m11 U - m22 U) * t /\ z * z = (1 - m00 U - m11 U + m22 U) * t /\
  x * y = (m01 U + m10 U) * t /\ x * z = (m02 U + m20 U) * t /\ y * z = (m12 U + m21 U) * t.
Proof.
  intros HR. pose proof (rot_UUt U HR) as HT. pose proof (rot_madj U HR) as HA. destruct HR as [HO _].
  destruct U as [a b c d e f g h i]. unfold madj, mtrans, mmul, mI in *; cbn [m00 m01 m02 m10 m11 m12 m20 m21 m22] in *.
  injection HA as A0 A1 A2 A3 A4 A5 A6 A7 A8. injection HO as O0 O1 O2 _ O4 O5 _ _ O8. injection HT as T0 T1 T2 _ T4 T5 _ _ T8.
  (* each is a linear combination of orthonormality of rows and of columns and of cofactor = entry *)
  cbv zeta. repeat split; lra.
Qed.

Lemma laue_rod_to_u_inv U r : is_rot U -> laue_u_to_rod U = Some r -> laue_rod_to_u r = U.
Proof.
  intros HR E. pose proof (rot_axial U HR) as Q. unfold laue_u_to_rod in E; cbv zeta in *.
  destruct (Rlt_dec _ _) as [L|L]; [discriminate|]. injection E as <-.
  assert (T : 1 + m00 U + m11 U + m22 U <> 0) by (intro Z; rewrite Z, Rabs_R0 in L; lra).
  rewrite laue_rod_spec. destruct U as [a b c d e f g h i]. cbn [m00 m01 m02 m10 m11 m12 m20 m21 m22] in *.
  set (t := 1 + a + e + i) in *. unfold rod_spec; cbv zeta. set (v := mkV3 _ _ _).
  (* with 1 + |v|^2 = 4 / t every entry is, by Q, linear in the entries of U *)
  assert (K : 1 + vnorm2 v = 4 / t) by (cbv [v vnorm2 vdot vx vy vz]; field_simplify_eq; [unfold t in *; lra | exact T]).
  rewrite K. subst v. munfold. f_equal; (field_simplify_eq; [unfold t in *; lra | exact T]).
Qed.
