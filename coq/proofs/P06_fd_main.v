(* C06: at most one member of every Laue family lies in the union of the traversal's cones - for all of Z^3, every setting.
   gen/P06_fd.v proves it per segment table for the Laue group of the settings selecting that table (lia, one goal per
   group element and pair of segments); here every setting is shown (by computation) to select a table entry whose group is its own Laue group. *)
From Coq Require Import ZArith List Bool String.
From XV Require Import SGroup HklModel Traverse Tab_segm Tab_sg_all Dedup SGFacts P05 P06_fd.
Import ListNotations.
Open Scope Z_scope.

Definition laue_mats (s : sgrec) : option (list mat) :=
  match all_mats (firstn (Z.to_nat (sg_nuniq s)) (sg_rot s)) with
  | Some rots => Some (rots ++ map mnegZ rots)
  | None => None
  end.

Lemma laue_mats_L s L rots : all_mats (firstn (Z.to_nat (sg_nuniq s)) (sg_rot s)) = Some rots -> L = rots ++ map mnegZ rots -> laue_mats s = Some L.
Proof. intros Hr ->. unfold laue_mats. rewrite Hr. reflexivity. Qed.

Definition fd_matches (laue choice : string) (e : string * option bool * list mat * list (list (list Z))) : bool :=
  let '(l, rh, _, _) := e in
  String.eqb l laue &&
  match rh with
  | None => true
  | Some true => String.eqb choice "rhombohedral"%string
  | Some false => negb (String.eqb choice "rhombohedral"%string)
  end.
Definition fd_lookup (laue choice : string) : option (string * option bool * list mat * list (list (list Z))) :=
  match filter (fd_matches laue choice) fd_table with
  | [] => None
  | l => Some (last l (EmptyString, None, [], []))
  end.

Lemma fd_lookup_choice laue c1 c2 : String.eqb c1 "rhombohedral" = String.eqb c2 "rhombohedral" -> fd_lookup laue c1 = fd_lookup laue c2.
Proof.
  intros E. unfold fd_lookup. rewrite (filter_ext (fd_matches laue c1) (fd_matches laue c2)); [reflexivity|].
  intros [[[l rh] g] x]. unfold fd_matches. rewrite E. reflexivity.
Qed.

Definition segs_eqb : list (list (list Z)) -> list (list (list Z)) -> bool := list_eqb (list_eqb (list_eqb Z.eqb)).
Definition fd_setting_ok (s : sgrec) : bool :=
  match laue_mats s, fd_lookup (sg_laue s) (sg_choice s), lookup_segm segm_laue (sg_laue s) (sg_choice s) with
  | Some L, Some e, Some segs =>
      forallb (fun R => existsb (mat_eqb R) (snd (fst e))) L && segs_eqb segs (snd e)
      && forallb (fun R => existsb (mat_eqb R) L) (snd (fst e))                          (* the table's group is exactly this setting's *)
      && forallb (fun R => existsb (fun R' => mat_eqb (mmulZ R R') mI9) L) L             (* closed under inverse *)
  | _, _, _ => false
  end.
Lemma fd_settings_ok : forallb fd_setting_ok all_settings = true.
Proof. vm_compute. reflexivity. Qed.

Lemma fd_lookup_in laue choice e : fd_lookup laue choice = Some e -> In e fd_table.
Proof.
  unfold fd_lookup. destruct (filter _ fd_table) as [|a l] eqn:F; [discriminate|]. intros E. injection E as <-.
  assert (Hin : In (last (a :: l) (EmptyString, None, [], [])) (a :: l)) by (apply last_in; discriminate).
  rewrite <- F in Hin. apply filter_In in Hin. rewrite F in Hin. exact (proj1 Hin).
Qed.

Lemma fd_setting_spec s L : In s all_settings -> laue_mats s = Some L ->
  exists e, In e fd_table /\ fd_lookup (sg_laue s) (sg_choice s) = Some e /\ lookup_segm segm_laue (sg_laue s) (sg_choice s) = Some (snd e) /\
            (forall R, In R L <-> In R (snd (fst e))).
Proof.
  intros Hs HL. pose proof (proj1 (forallb_forall _ _) fd_settings_ok s Hs) as Hok. unfold fd_setting_ok in Hok. rewrite HL in Hok.
  destruct (fd_lookup (sg_laue s) (sg_choice s)) as [e|] eqn:El; [|discriminate].
  destruct (lookup_segm segm_laue (sg_laue s) (sg_choice s)) as [segs|]; [|discriminate].
  rewrite !andb_true_iff in Hok. destruct Hok as [[[Hsub HS] Hsup] _]. rewrite forallb_forall in Hsub, Hsup.
  exists e. split; [exact (fd_lookup_in _ _ e El)|]. split; [reflexivity|]. split.
  - f_equal. exact (list_eqb_eq _ (list_eqb_eq _ list_eqb_Z_eq) _ _ HS).
  - intros R. split; intros HR; apply (existsb_In mat_eqb mat_eqb_spec); [exact (Hsub R HR) | exact (Hsup R HR)].
Qed.

Theorem one_per_family s L segs : In s all_settings -> laue_mats s = Some L -> lookup_segm segm_laue (sg_laue s) (sg_choice s) = Some segs ->
  forall R seg1 seg2 x, In R L -> In seg1 segs -> In seg2 segs -> in_cone seg1 x -> in_cone seg2 (vmZ x R) -> vmZ x R = x /\ seg1 = seg2.
Proof.
  intros Hs HL Hsg R seg1 seg2 [[x y] z] HR H1 H2 C1 C2.
  destruct (fd_setting_spec s L Hs HL) as (e & He & _ & Hl & HG). rewrite Hsg in Hl. injection Hl as ->.
  exact (fd_table_unique e He R seg1 seg2 x y z (proj1 (HG R) HR) H1 H2 C1 C2).
Qed.

Corollary rows_one_per_family s L segs G Tmin Tmax Tterm allowed fuel l :
  In s all_settings -> laue_mats s = Some L -> lookup_segm segm_laue (sg_laue s) (sg_choice s) = Some segs ->
  all_segments G Tmin Tmax Tterm allowed fuel segs = Some l ->
  forall x y R, In x l -> In y l -> In R L -> y = vmZ x R -> y = x.
Proof. intros Hs HL Hsg. exact (rows_one G Tmin Tmax Tterm allowed L fuel segs l (one_per_family s L segs Hs HL Hsg)). Qed.

Example laue_mats_defined : forallb (fun s => match laue_mats s with Some L => negb (Nat.eqb (List.length L) 0) | None => false end) all_settings = true.
Proof. vm_compute. reflexivity. Qed.
