(* C08: instantiation on the regenerated tables, and the loop skeleton of StructureFactor traced on small symbolic structures *)
From Coq Require Import Reals.
From XV Require Import RealLib Mat3 Cplx SGroup SGLeft SGFacts Tab_sg_all Gen_tools Gen_structure P07_gen P07_tab P04 P07_main P08_orbit P08.
Import ListNotations.
Open Scope R_scope.

Lemma opR_id_ident : is_ident (opR op_id).
Proof.
  split; [reflexivity|]. exists 0%Z, 0%Z, 0%Z. unfold opR, op_id, vecR12; cbn [snd]. f_equal; unfold Rdiv; ring.
Qed.

Lemma left_ok_group_like ops : left_ok_ops ops = true -> group_like (map opR ops).
Proof.
  intros H. split.
  - exists (opR op_id). split; [apply in_map; apply left_ok_ident; exact H | apply opR_id_ident].
  - intros k Hk. apply in_map_iff in Hk. destruct Hk as (k0 & <- & Hk0). split.
    + exists (fst k0). split; [reflexivity | apply (left_ok_det ops); assumption].
    + apply left_ok_closed; assumption.
Qed.
Lemma table_group_like s ops : In s all_settings -> ops_of (sg_rot s) (sg_trans s) = Some ops -> group_like (map opR ops).
Proof. intros Hs Ho. exact (left_ok_group_like ops (table_left_ok s ops Hs Ho)). Qed.
Lemma table_int_ops ops : int_ops (map opR ops).
Proof. intros o Ho. apply in_map_iff in Ho. destruct Ho as (k0 & <- & _). exists (fst k0). reflexivity. Qed.

Theorem table_explicit_sum s ops c atoms h : In s all_settings -> ops_of (sg_rot s) (sg_trans s) = Some ops -> int_vec h ->
  (forall a, In a atoms -> adp_ok c (map opR ops) a /\ a_multi a = INR (length (cell_sites (a_pos a) (map opR ops)))) ->
  SF c (map opR ops) atoms h = SF_explicit c (map opR ops) atoms h.
Proof. intros Hs Ho Hh Hat. apply SF_is_explicit_sum; [exact Hh | eapply table_group_like; eassumption | exact Hat]. Qed.

Theorem table_lattice_shift (ops : list op) c a L rest h : int_vec h -> int_vec L ->
  SF c (map opR ops) (set_pos a (vadd (a_pos a) L) :: rest) h = SF c (map opR ops) (a :: rest) h.
Proof. intros Hh HL. apply SF_lattice_shift; [exact Hh | exact HL | apply table_int_ops]. Qed.

(* non-vacuity: an isotropic atom whose multiplicity is the number of its sites meets the hypotheses in P 21/c *)
Example explicit_hypotheses_satisfiable : exists s ops, sg14 = Some s /\ ops_of (sg_rot s) (sg_trans s) = Some ops /\
  forall c x U occ ff fp fpp h, int_vec h ->
    let a := mkAtom x (Uiso U) occ (INR (length (cell_sites x (map opR ops)))) ff fp fpp in
    SF c (map opR ops) [a] h = SF_explicit c (map opR ops) [a] h.
Proof.
  destruct sg14 as [s|] eqn:E; [|vm_compute in E; discriminate].
  pose proof (find_some _ _ E) as [Hin _].
  destruct (setting_ops s Hin) as (ops & Eo & _).
  exists s, ops. split; [reflexivity|]. split; [exact Eo|]. intros c x U occ ff fp fpp h Hh a.
  apply (table_explicit_sum s ops c [a] h Hin Eo Hh). intros a' [<-|[]]. split; [exact I | reflexivity].
Qed.

(* the loop skeleton: StructureFactor traced on a two-atom structure (one operation; dispersion entry for the first type, None for
   the second) and on a one-atom structure with two operations is the sum of the per-term functions used in SF *)
Lemma skeleton_two_atoms h c Rm t x1 x2 U1 occ1 occ2 m1 m2 nsym f1 f2 fp fpp :
  c_of (structure_sf_two_atoms h c Rm t x1 x2 U1 occ1 occ2 m1 m2 nsym f1 f2 fp fpp)
  = cadd (c_of (structure_sf_term_uiso h c Rm t x1 U1 occ1 m1 nsym f1 fp fpp))
         (c_of (structure_sf_term_noadp h c Rm t x2 occ2 m2 nsym f2 0 0)).
Proof.
  unfold structure_sf_two_atoms, structure_sf_term_uiso, structure_sf_term_noadp, c_of, cadd; cbv zeta; cbn [p0 p1 fst snd].
  apply C_ext; cbn [fst snd]; ring.
Qed.
Lemma skeleton_two_ops h c R1 t1 R2 t2 x adp occ m nsym f fp fpp :
  c_of (structure_sf_two_ops h c R1 t1 R2 t2 x adp occ m nsym f fp fpp)
  = cadd (c_of (structure_sf_term_uani h c R1 t1 x adp occ m nsym f fp fpp))
         (c_of (structure_sf_term_uani h c R2 t2 x adp occ m nsym f fp fpp)).
Proof. reflexivity. Qed.

(* hence the traced two-atom run is SF on that structure (INR 1 stands for the symbolic operation count) *)
Theorem two_atoms_is_SF h c Rm t x1 x2 U1 occ1 occ2 m1 m2 ff1 ff2 fp fpp :
  c_of (structure_sf_two_atoms h c Rm t x1 x2 U1 occ1 occ2 m1 m2 (INR 1) (ff1 (tools_sintl c h)) (ff2 (tools_sintl c h)) fp fpp)
  = SF c [(Rm, t)] [mkAtom x1 (Uiso U1) occ1 m1 ff1 fp fpp; mkAtom x2 NoAdp occ2 m2 ff2 0 0] h.
Proof.
  rewrite skeleton_two_atoms. unfold SF, gen_term; cbn [map length a_adp a_pos a_occ a_multi a_ff a_fp a_fpp fst snd].
  rewrite !csum_cons, csum_nil, !cadd_0_r. reflexivity.
Qed.
Theorem two_ops_is_SF h c R1 t1 R2 t2 x adp occ m ff fp fpp :
  c_of (structure_sf_two_ops h c R1 t1 R2 t2 x adp occ m (INR 2) (ff (tools_sintl c h)) fp fpp)
  = SF c [(R1, t1); (R2, t2)] [mkAtom x (Uani adp) occ m ff fp fpp] h.
Proof.
  rewrite skeleton_two_ops. unfold SF, gen_term; cbn [map length a_adp a_pos a_occ a_multi a_ff a_fp a_fpp fst snd].
  rewrite !csum_cons, csum_nil, !cadd_0_r. reflexivity.
Qed.
