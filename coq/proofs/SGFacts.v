(* Lemmas about the executable definitions of lib/SGroup.v, lib/SGLeft.v and model/HklModel.v (which hold no proofs):
   what the boolean equality tests mean, the algebra of h R and h.t over Z, finite groups of integer matrices (mat_group), the
   rotation and translation part of a product of operations, how ops_of builds an operation list (ops_of_ind), and what
   SGLeft.left_ok says of one (left_ok_ops_spec). *)
From Coq Require Import ZArith List Bool Permutation Lia.
From XV Require Import SGroup SGLeft HklModel Dedup.
Import ListNotations.
Open Scope Z_scope.

Lemma hkl_eqb_spec a b : hkl_eqb a b = true <-> a = b.
Proof. exact (z3_eqb_spec a b). Qed.
Lemma v3_eqb_spec u v : v3_eqb u v = true <-> u = v.
Proof. exact (z3_eqb_spec u v). Qed.
Lemma mat_eqb_spec A B : mat_eqb A B = true <-> A = B.
Proof.
  destruct A as [[[[[[[[a b] c] d] e] f] g] h] i], B as [[[[[[[[a' b'] c'] d'] e'] f'] g'] h'] i']. unfold mat_eqb.
  rewrite !andb_true_iff, !Z.eqb_eq. split.
  - intros H. decompose [and] H. subst. reflexivity.
  - intros H. injection H as -> -> -> -> -> -> -> -> ->. tauto.
Qed.
Lemma op_eqb_spec p q : op_eqb p q = true <-> p = q.
Proof.
  destruct p as [A u], q as [B v]. unfold op_eqb; cbn [fst snd]. rewrite andb_true_iff, mat_eqb_spec, v3_eqb_spec. split.
  - intros [-> ->]. reflexivity.
  - intros H. injection H as -> ->. tauto.
Qed.
Lemma existsb_op_eqb a l : existsb (op_eqb a) l = true <-> In a l.
Proof. exact (existsb_In op_eqb op_eqb_spec a l). Qed.
Lemma list_eqb_eq {A} (eqb : A -> A -> bool) : (forall a b, eqb a b = true -> a = b) -> forall l1 l2, list_eqb eqb l1 l2 = true -> l1 = l2.
Proof.
  intros Hs. induction l1 as [|a l1 IH]; destruct l2 as [|b l2]; cbn; intros H; try discriminate; [reflexivity|].
  apply andb_prop in H. destruct H as [H1 H2]. f_equal; [apply Hs; exact H1 | apply IH; exact H2].
Qed.
Lemma list_eqb_Z_eq l1 l2 : list_eqb Z.eqb l1 l2 = true -> l1 = l2.
Proof. apply list_eqb_eq. intros a b. apply Z.eqb_eq. Qed.
Lemma list_eqb_refl {A} (eqb : A -> A -> bool) : (forall a, eqb a a = true) -> forall l, list_eqb eqb l l = true.
Proof. intros H. induction l as [|a l IH]; cbn; [reflexivity|]. rewrite H, IH. reflexivity. Qed.
Lemma last_in {A} (l : list A) d : l <> [] -> In (last l d) l.
Proof.
  induction l as [|a l IH]; [congruence|]. intros _. destruct l as [|b l]; [left; reflexivity|].
  right. apply IH. discriminate.
Qed.
Lemma firstn_In {A} n (l : list A) x : In x (firstn n l) -> In x l.
Proof. intros H. rewrite <- (firstn_skipn n l). apply in_or_app. left. exact H. Qed.

Lemma hkl_nz x y z : (x, y, z) <> (0, 0, 0) <-> x <> 0 \/ y <> 0 \/ z <> 0.
Proof.
  split; [|intros H E; injection E; lia]. intros H.
  assert (~ (x = 0 /\ y = 0 /\ z = 0)) by (intros (-> & -> & ->); exact (H eq_refl)). lia.
Qed.

(* an equation between tuples of polynomials in the entries, component by component *)
Ltac tup_ring := repeat (apply (f_equal2 (@pair _ _))); ring.

Definition hneg (h : hkl) : hkl := let '(x, y, z) := h in (- x, - y, - z).

Lemma vmZ_mmulZ h A B : vmZ (vmZ h A) B = vmZ h (mmulZ A B).
Proof.
  destruct h as [[x y] z], A as [[[[[[[[a b] c] d] e] f] g] hh] i], B as [[[[[[[[a' b'] c'] d'] e'] f'] g'] h'] i'].
  unfold vmZ, mmulZ. tup_ring.
Qed.
Lemma mvZ_mmulZ A B v : mvZ (mmulZ A B) v = mvZ A (mvZ B v).
Proof.
  destruct A as [[[[[[[[a b] c] d] e] f] g] h] i], B as [[[[[[[[a' b'] c'] d'] e'] f'] g'] h'] i'], v as [[x y] z].
  unfold mvZ, mmulZ. tup_ring.
Qed.
Lemma vmZ_mtransZ v A : vmZ v (mtransZ A) = mvZ A v.
Proof. destruct v as [[x y] z], A as [[[[[[[[a b] c] d] e] f] g] h] i]. unfold vmZ, mvZ, mtransZ. tup_ring. Qed.
Lemma vmZ_I h : vmZ h mI9 = h.
Proof. destruct h as [[x y] z]. unfold vmZ, mI9. tup_ring. Qed.
Lemma vmZ_hneg h R : vmZ (hneg h) R = hneg (vmZ h R).
Proof. destruct h as [[x y] z], R as [[[[[[[[a b] c] d] e] f] g] hh] i]. unfold vmZ, hneg. tup_ring. Qed.
Lemma vmZ_mnegZ h R : vmZ h (mnegZ R) = hneg (vmZ h R).
Proof. destruct h as [[x y] z], R as [[[[[[[[a b] c] d] e] f] g] hh] i]. unfold vmZ, mnegZ, hneg. tup_ring. Qed.
Lemma mmulZ_mnegZ_l A B : mmulZ (mnegZ A) B = mnegZ (mmulZ A B).
Proof.
  destruct A as [[[[[[[[a b] c] d] e] f] g] h] i], B as [[[[[[[[a' b'] c'] d'] e'] f'] g'] h'] i']. unfold mmulZ, mnegZ.
  tup_ring.
Qed.
Lemma mmulZ_mnegZ_r A B : mmulZ A (mnegZ B) = mnegZ (mmulZ A B).
Proof.
  destruct A as [[[[[[[[a b] c] d] e] f] g] h] i], B as [[[[[[[[a' b'] c'] d'] e'] f'] g'] h'] i']. unfold mmulZ, mnegZ.
  tup_ring.
Qed.
Lemma mnegZ_mnegZ A : mnegZ (mnegZ A) = A.
Proof. destruct A as [[[[[[[[a b] c] d] e] f] g] h] i]. unfold mnegZ. rewrite !Z.opp_involutive. reflexivity. Qed.
Lemma hneg_invol h : hneg (hneg h) = h.
Proof. destruct h as [[x y] z]. unfold hneg. tup_ring. Qed.

(* a finite group of integer matrices, as a list *)
Record mat_group (L : list mat) : Prop := {
  grp_id : In mI9 L;
  grp_mul : forall A B, In A L -> In B L -> In (mmulZ A B) L;
  grp_inv : forall R, In R L -> exists R', In R' L /\ mmulZ R R' = mI9 }.
Arguments grp_id {L}.
Arguments grp_mul {L}.
Arguments grp_inv {L}.

Lemma neg_closure_group U : mat_group U -> mat_group (U ++ map mnegZ U).
Proof.
  intros [Id Mul Inv]. set (L := U ++ map mnegZ U).
  assert (InL : forall R, In R L <-> In R U \/ In (mnegZ R) U).
  { intros R. unfold L. rewrite in_app_iff, in_map_iff. split; (intros [H|H]; [left; exact H | right]).
    - destruct H as (R0 & <- & H0). rewrite mnegZ_mnegZ. exact H0.
    - exists (mnegZ R). split; [apply mnegZ_mnegZ | exact H]. }
  split.
  - apply InL. left. exact Id.
  - intros A B HA HB. apply InL in HA, HB. apply InL. destruct HA as [HA|HA], HB as [HB|HB].
    + left. apply Mul; assumption.
    + right. rewrite <- mmulZ_mnegZ_r. apply Mul; assumption.
    + right. rewrite <- mmulZ_mnegZ_l. apply Mul; assumption.
    + left. rewrite <- (mnegZ_mnegZ (mmulZ A B)), <- mmulZ_mnegZ_l, <- mmulZ_mnegZ_r. apply Mul; assumption.
  - intros R HR. apply InL in HR. destruct HR as [HR|HR].
    + destruct (Inv R HR) as (R' & HR' & E). exists R'. split; [apply InL; left; exact HR' | exact E].
    + destruct (Inv _ HR) as (R' & HR' & E). exists (mnegZ R'). split; [apply InL; right; rewrite mnegZ_mnegZ; exact HR'|].
      rewrite mmulZ_mnegZ_r, <- mmulZ_mnegZ_l. exact E.
Qed.

Definition vadd3 (v w : Z * Z * Z) : Z * Z * Z := let '(x, y, z) := v in let '(a, b, c) := w in (x + a, y + b, z + c).

Lemma dot3z_mvZ h A v : dot3z h (mvZ A v) = dot3z (vmZ h A) v.
Proof. destruct h as [[x y] z], A as [[[[[[[[a b] c] d] e] f] g] hh] i], v as [[p q] r]. unfold dot3z, mvZ, vmZ. ring. Qed.
Lemma dot3z_vadd3 h v w : dot3z h (vadd3 v w) = dot3z h v + dot3z h w.
Proof. destruct h as [[x y] z], v as [[a b] c], w as [[p q] r]. unfold dot3z, vadd3. ring. Qed.
Lemma dot3z_hneg h t : dot3z (hneg h) t = - dot3z h t.
Proof. destruct h as [[x y] z], t as [[p q] r]. unfold dot3z, hneg. ring. Qed.
Lemma lin_mod a b c v1 v2 v3 x :
  (a * (v1 mod 12) + b * (v2 mod 12) + c * (v3 mod 12) + x) mod 12 = (a * v1 + b * v2 + c * v3 + x) mod 12.
Proof.
  rewrite (Z.mod_eq v1 12), (Z.mod_eq v2 12), (Z.mod_eq v3 12) by lia.
  replace (a * (v1 - 12 * (v1 / 12)) + b * (v2 - 12 * (v2 / 12)) + c * (v3 - 12 * (v3 / 12)) + x)
    with (a * v1 + b * v2 + c * v3 + x + - (a * (v1 / 12) + b * (v2 / 12) + c * (v3 / 12)) * 12) by ring.
  apply Z_mod_plus_full.
Qed.
Lemma dot3z_mod12v h v : (dot3z h (mod12v v)) mod 12 = (dot3z h v) mod 12.
Proof.
  destruct h as [[a b] c], v as [[x y] z]. pose proof (lin_mod a b c x y z 0) as E. rewrite !Z.add_0_r in E. exact E.
Qed.

Lemma op_mul_fst p q : fst (op_mul p q) = mmulZ (fst p) (fst q).
Proof. destruct p as [R1 [[a b] c]], q as [R2 t2]. unfold op_mul. cbn [fst]. destruct (mvZ R1 t2) as [[x y] z]. reflexivity. Qed.
Lemma op_mul_snd p q : snd (op_mul p q) = mod12v (vadd3 (mvZ (fst p) (snd q)) (snd p)).
Proof. destruct p as [R [[a b] c]], q as [S t]. cbn. destruct (mvZ R t) as [[x y] z]. reflexivity. Qed.

(* ops_of succeeds exactly by reading one rotation and one translation at a time: every proof about its result goes by this rule *)
Lemma ops_of_ind (P : list (list Z) -> list (list Z) -> list op -> Prop) :
  P [] [] [] ->
  (forall r t R v rs ts l, mat_of_list r = Some R -> snap3 t = Some v -> mat_small R = true -> ops_of rs ts = Some l ->
     P rs ts l -> P (r :: rs) (t :: ts) ((R, v) :: l)) ->
  forall rots trans ops, ops_of rots trans = Some ops -> P rots trans ops.
Proof.
  intros P0 PS. induction rots as [|r rs IH]; intros [|t ts] ops H; cbn [ops_of] in H; try discriminate.
  - injection H as <-. exact P0.
  - destruct (mat_of_list r) as [R|] eqn:ER; [|discriminate]. destruct (snap3 t) as [v|] eqn:Ev; [|discriminate].
    destruct (ops_of rs ts) as [l|] eqn:El; [|discriminate]. destruct (mat_small R) eqn:ES; [|discriminate].
    injection H as <-. apply PS; auto.
Qed.

Lemma snap3_inv t v : snap3 t = Some v ->
  exists a b c, t = [a; b; c] /\ snap12 a = Some (fst (fst v)) /\ snap12 b = Some (snd (fst v)) /\ snap12 c = Some (snd v).
Proof.
  unfold snap3. destruct t as [|a [|b [|c [|? ?]]]]; try discriminate.
  destruct (snap12 a) as [x|] eqn:Ea; [|discriminate]. destruct (snap12 b) as [y|] eqn:Eb; [|discriminate].
  destruct (snap12 c) as [z|] eqn:Ec; [|discriminate]. intros E. injection E as <-. exists a, b, c. auto.
Qed.

Lemma ops_of_all_mats rots : forall trans ops, ops_of rots trans = Some ops -> forall n, all_mats (firstn n rots) = Some (firstn n (map fst ops)).
Proof.
  revert rots. refine (ops_of_ind _ _ _).
  - intros [|n]; reflexivity.
  - intros r t R v rs ts l ER _ _ _ IH [|n]; [reflexivity|]. cbn. rewrite ER, (IH n). reflexivity.
Qed.

Lemma nodupb_spec l : nodupb l = true <-> NoDup l.
Proof.
  induction l as [|a r IH]; cbn [nodupb]; [split; [constructor | reflexivity]|].
  rewrite andb_true_iff, negb_true_iff, <- not_true_iff_false, existsb_op_eqb, IH. split.
  - intros [H1 H2]. constructor; assumption.
  - intros H. inversion H. auto.
Qed.
Lemma inclb_spec l1 l2 : inclb l1 l2 = true <-> incl l1 l2.
Proof. unfold inclb, incl. rewrite forallb_forall. setoid_rewrite existsb_op_eqb. reflexivity. Qed.

Lemma left_ok_ops_spec ops : left_ok_ops ops = true <->
  NoDup ops /\ (forall k, In k ops -> incl ops (map (op_mul k) ops)) /\ In op_id ops /\ (forall p, In p ops -> Z.abs (mdetZ (fst p)) = 1).
Proof.
  unfold left_ok_ops. rewrite !andb_true_iff, nodupb_spec, !forallb_forall, existsb_op_eqb.
  setoid_rewrite inclb_spec. setoid_rewrite Z.eqb_eq. tauto.
Qed.

Lemma left_ok_perm ops k : left_ok_ops ops = true -> In k ops -> Permutation (map (op_mul k) ops) ops.
Proof.
  intros H Hk. apply left_ok_ops_spec in H. destruct H as (Hn & Hf & _).
  apply Permutation_sym. apply NoDup_Permutation_bis; [exact Hn | rewrite map_length; apply Nat.le_refl | exact (Hf k Hk)].
Qed.
Lemma left_ok_ident ops : left_ok_ops ops = true -> In op_id ops.
Proof. intros H. apply left_ok_ops_spec in H. tauto. Qed.
Lemma left_ok_det ops k : left_ok_ops ops = true -> In k ops -> mdetZ (fst k) = 1 \/ mdetZ (fst k) = -1.
Proof. intros H Hk. apply left_ok_ops_spec in H. destruct H as (_ & _ & _ & Hd). specialize (Hd k Hk). lia. Qed.
