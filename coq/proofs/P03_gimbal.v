(* C03: u_to_euler inside the gimbal bands (PHI within 1e-8 of 0 or of pi): the code returns (phi1, PHI, 0) with
   phi1 = arctan2(-/+U01, U00); the reconstructed matrix differs from U by at most tol + 6 sin(PHI) <= 7e-8 in every entry. *)
From Coq Require Import Reals Psatz.
From XV Require Import RealLib Mat3 Gen_laue P03_euler P03_band.
Open Scope R_scope.

Lemma sq_le_abs x y : 0 <= y -> x * x <= y * y -> - y <= x <= y.
Proof. intros Hy H. split; nra. Qed.
Lemma unit_le1 x y : x * x + y * y = 1 -> -1 <= x <= 1.
Proof. intros H. split; nra. Qed.
Lemma prod_bound w k m : -1 <= w <= 1 -> - m <= k <= m -> - m <= w * k <= m.
Proof. intros Hw Hk. split; nra. Qed.
Lemma one_minus_le x m : 0 <= x -> 0 <= m <= 1 -> 1 - m * m <= x * x <= 1 -> 0 <= 1 - x <= m.
Proof. intros Hx Hm H. split; nra. Qed.

(* the algebra: entries a..i of a rotation, s = +1 (PHI near 0) or -1 (PHI near pi), s i >= 0, dl = sin PHI >= 0,
   (cr, sr) the direction cosines of the returned phi1 within t of (a, -s b)/rho; the conclusion is
   mclose (t + 6 dl) (Rz r Rx PHI) U written out *)
Section Core.
Variables a b c d e f g h i s dl rho cr sr t : R.
Hypothesis R0 : a * a + b * b + c * c = 1.
Hypothesis C2 : c * c + f * f + i * i = 1.
Hypothesis R2 : g * g + h * h + i * i = 1.
Hypothesis A1 : c * h - b * i = d.
Hypothesis A4 : a * i - c * g = e.
Hypothesis Hs : s = 1 \/ s = -1.
Hypothesis Hj : 0 <= s * i.
Hypothesis Hd : 0 <= dl.
Hypothesis Hd2 : dl * dl = 1 - i * i.
Hypothesis Hrho : 0 < rho.
Hypothesis Hrho2 : rho * rho = a * a + b * b.
Hypothesis Hcs : cr * cr + sr * sr = 1.
Hypothesis Hc : Rabs (cr - a / rho) <= t.
Hypothesis Hsn : Rabs (sr - (- s * b) / rho) <= t.

Lemma core_bounds :
  mclose (t + 6 * dl) (mmul (mkM3 cr (- sr) 0 sr cr 0 0 0 1) (mkM3 1 0 0 0 i (- dl) 0 dl i)) (mkM3 a b c d e f g h i).
Proof.
  (* a = u (1 - p), b = - s v (1 - p), i = s (1 - q) with (u, v) a unit vector and p, q in [0, dl]; c, f, g, h lie in [-dl, dl]
     too, so each entry of the difference is 0, cr - u or sr - v plus at most five terms of size dl *)
  set (u := a / rho) in *. set (v := (- s * b) / rho) in *. set (p := 1 - rho). set (q := 1 - s * i).
  assert (Hss : s * s = 1) by (destruct Hs as [-> | ->]; ring).
  assert (Hr : rho <> 0) by lra.
  assert (Ea : a = u * (1 - p)) by (unfold u, p; field; exact Hr).
  assert (Eb : b = - s * v * (1 - p)) by (unfold v, p; transitivity ((s * s) * b); [rewrite Hss; ring | field; exact Hr]).
  assert (Ei : i = s * (1 - q)) by (unfold q; transitivity ((s * s) * i); [rewrite Hss; ring | ring]).
  assert (Euv : u * u + v * v = 1).
  { unfold u, v. transitivity ((a * a + (s * s) * (b * b)) / (rho * rho)); [field; exact Hr|]. rewrite Hss, Hrho2. field. nra. }
  assert (Hd1 : dl <= 1) by nra.
  assert (Q1 : 0 <= p <= dl) by (apply one_minus_le; [lra | lra | nra]).
  assert (Q2 : 0 <= q <= dl) by (apply one_minus_le; [exact Hj | lra | destruct Hs as [-> | ->]; nra]).
  assert (Bc : - dl <= c <= dl) by (apply sq_le_abs; [exact Hd | nra]).
  assert (Bf : - dl <= f <= dl) by (apply sq_le_abs; [exact Hd | nra]).
  assert (Bg : - dl <= g <= dl) by (apply sq_le_abs; [exact Hd | nra]).
  assert (Bh : - dl <= h <= dl) by (apply sq_le_abs; [exact Hd | nra]).
  pose proof (unit_le1 u v Euv) as Bu. rewrite Rplus_comm in Euv. pose proof (unit_le1 v u Euv) as Bv.
  pose proof (unit_le1 cr sr Hcs) as Bcr. rewrite Rplus_comm in Hcs. pose proof (unit_le1 sr cr Hcs) as Bsr.
  (* every product of a factor in [-1, 1] with p, q, p q, dl, c lies in [-dl, dl] *)
  assert (Qpq : - dl <= p * q <= dl) by (rewrite Rmult_comm; apply prod_bound; lra).
  assert (Q1' : - dl <= p <= dl) by lra. assert (Q2' : - dl <= q <= dl) by lra. assert (Q3 : - dl <= dl <= dl) by lra.
  pose proof (prod_bound u p dl Bu Q1') as Pu. pose proof (prod_bound v p dl Bv Q1') as Pv.
  pose proof (prod_bound u q dl Bu Q2') as Qu. pose proof (prod_bound v q dl Bv Q2') as Qv.
  pose proof (prod_bound sr q dl Bsr Q2') as Qs. pose proof (prod_bound cr q dl Bcr Q2') as Qc.
  pose proof (prod_bound u (p * q) dl Bu Qpq) as PQu. pose proof (prod_bound v (p * q) dl Bv Qpq) as PQv.
  pose proof (prod_bound sr dl dl Bsr Q3) as Ds. pose proof (prod_bound cr dl dl Bcr Q3) as Dc.
  assert (Bch : - dl <= h * c <= dl) by (apply prod_bound; lra). assert (Bcg : - dl <= g * c <= dl) by (apply prod_bound; lra).
  apply abs_iff in Hc, Hsn.
  unfold mclose, mmul; cbn [m00 m01 m02 m10 m11 m12 m20 m21 m22]. rewrite <- A1, <- A4, Ea, Eb, Ei.
  clearbody u v p q. clear - Hs Hc Hsn Pu Pv Qu Qv Qs Qc PQu PQv Ds Dc Bch Bcg Bc Bf Bg Bh Q1 Q2 Hd Hd1.
  destruct Hs as [-> | ->]; repeat split; apply abs_iff; lra.
Qed.
End Core.

Lemma small_angle t : 0 <= t < 1 -> 0 < cos t /\ 0 <= sin t <= t.
Proof.
  intros Ht. pose proof PI2_3_2 as P32. split; [apply cos_gt_0; lra|].
  destruct (Req_dec t 0) as [->|N]; [rewrite sin_0; lra|].
  split; left; [apply sin_gt_0; lra | apply sin_lt_x; lra].
Qed.

(* inside a gimbal band, with s = 1 near 0 and s = -1 near pi *)
Lemma band_facts U : is_rot U -> ~ not_gimbal U -> let P := acos (m22 U) in
  exists s, (s = 1 \/ s = -1) /\ euler_raw U = option_map (fun r => (r, 0)) (laue_arctan2 (- s * m01 U) (m00 U)) /\
            0 <= s * m22 U /\ 0 <= sin P <= tol /\ cos P = m22 U.
Proof.
  intros HR HG P. destruct (rot_cols_unit U HR) as (_ & _ & C2).
  assert (Bi : -1 <= m22 U <= 1) by (split; nra).
  pose proof (acos_bound (m22 U)) as AB. pose proof (cos_acos (m22 U) Bi) as CP.
  assert (T : 0 < tol < 1) by (unfold tol; lra).
  unfold euler_raw. fold P in AB, CP |- *. fold tol. destruct (Rlt_dec (Rabs P) tol) as [L|NL].
  - exists 1. rewrite Rabs_right in L by lra. destruct (small_angle P) as [C S]; [lra|].
    replace (- (1) * m01 U) with (- m01 U) by ring. repeat split; auto; lra.
  - destruct (Rlt_dec (Rabs (P - PI)) tol) as [L|NL2].
    + exists (-1). rewrite Rabs_left1 in L by lra. destruct (small_angle (PI - P)) as [C S]; [lra|].
      rewrite sin_minus, cos_minus, cos_PI, sin_PI in *.
      replace (- -1 * m01 U) with (m01 U) by ring. repeat split; auto; lra.
    + exfalso. apply HG. unfold not_gimbal. fold P tol. split; lra.
Qed.

(* common part: s = 1 with r = arctan2(-U01, U00), or s = -1 with r = arctan2(U01, U00) *)
Lemma gimbal_core U s r : is_rot U -> (s = 1 \/ s = -1) -> laue_arctan2 (- s * m01 U) (m00 U) = Some r ->
  let P := acos (m22 U) in 0 <= s * m22 U -> 0 <= sin P <= tol -> cos P = m22 U -> mclose (7 * tol) (mmul (Rz r) (Rx P)) U.
Proof.
  intros HR Hs Hr P Hj Hsin CP. destruct (rot_rows_unit U HR) as (R0 & _ & R2). destruct (rot_cols_unit U HR) as (_ & _ & C2).
  pose proof (rot_madj U HR) as HA. pose proof (f_equal m01 HA) as A1. pose proof (f_equal m11 HA) as A4.
  cbn [madj mtrans m01 m11] in A1, A4.
  assert (Hd2 : sin P * sin P = 1 - m22 U * m22 U) by (pose proof (sc1 P); rewrite CP in *; lra).
  destruct (arctan2_cs _ _ _ Hr) as (Prho & Cc & Cs). cbv zeta in *.
  set (rho := sqrt (m00 U * m00 U + - s * m01 U * (- s * m01 U))) in *.
  assert (Hrho2 : rho * rho = m00 U * m00 U + m01 U * m01 U).
  { unfold rho. rewrite sqrt_sqrt; [|nra]. destruct Hs as [-> | ->]; ring. }
  pose proof (sc1 r) as SC.
  pose proof (core_bounds _ _ _ _ _ _ _ _ _ s (sin P) rho (cos r) (sin r) tol
                R0 C2 R2 A1 A4 Hs Hj (proj1 Hsin) Hd2 Prho Hrho2 ltac:(lra) Cc Cs) as B.
  apply (mclose_le (tol + 6 * sin P)); [lra|]. unfold Rz, Rx. rewrite CP. destruct U. exact B.
Qed.

Theorem euler_gimbal U e : is_rot U -> ~ not_gimbal U -> laue_u_to_euler U = Some e ->
  mclose (7 * tol) (laue_euler_to_u (vx e) (vy e) (vz e)) U.
Proof.
  intros HR HG H. destruct (band_facts U HR HG) as (s & Hs & ER & Hj & Hsin & CP). cbv zeta in *.
  destruct (u_to_euler_inv U e H) as (r1 & r2 & E & _ & ->). rewrite ER in E.
  destruct (laue_arctan2 (- s * m01 U) (m00 U)) as [r|] eqn:Er; [|discriminate]. injection E as <- <-.
  rewrite Rz_0, mmul_I_r. apply (gimbal_core U s r); assumption.
Qed.

Lemma not_gimbal_dec U : not_gimbal U \/ ~ not_gimbal U.
Proof.
  unfold not_gimbal. destruct (Rle_dec (1 / 100000000) (Rabs (acos (m22 U)))), (Rle_dec (1 / 100000000) (Rabs (acos (m22 U) - PI))); tauto.
Qed.

Theorem euler_roundtrip_tol U e : is_rot U -> laue_u_to_euler U = Some e ->
  mclose (12 * tol) (laue_euler_to_u (vx e) (vy e) (vz e)) U.
Proof.
  intros HR H. destruct (not_gimbal_dec U) as [G|G]; [apply euler_band; assumption|].
  apply (mclose_le (7 * tol)); [unfold tol; lra | apply euler_gimbal; assumption].
Qed.

Theorem euler_roundtrip_all U e : is_rot U -> laue_u_to_euler U = Some e ->
  mclose (1 / 1000000) (laue_euler_to_u (vx e) (vy e) (vz e)) U.
Proof. intros HR H. apply (mclose_le (12 * tol)); [unfold tol; lra | apply euler_roundtrip_tol; assumption]. Qed.

(* the code never raises on a rotation: the arguments of _arctan2 are the two small entries of a unit row or column
   whose third entry c has c^2 < 1 *)
Lemma unit_nz x y c : x * x + y * y + c * c = 1 -> c * c < 1 -> x <> 0 \/ y <> 0.
Proof. intros H Hc. destruct (Req_dec x 0) as [->|N]; [right; intros -> | left; exact N]. lra. Qed.

Theorem euler_total U : is_rot U -> exists e, laue_u_to_euler U = Some e.
Proof.
  intros HR. rewrite u_to_euler_eq.
  destruct (rot_rows_unit U HR) as (R0 & _ & R2). destruct (rot_cols_unit U HR) as (_ & _ & C2).
  pose proof (sc1 (acos (m22 U))) as SC.
  destruct (not_gimbal_dec U) as [G|G].
  - (* 0 < PHI < pi: U22^2 < 1 *)
    rewrite (euler_raw_generic U G). destruct G as [G1 G2].
    assert (Bi : -1 <= m22 U <= 1) by (split; nra).
    pose proof (acos_bound (m22 U)) as AB. pose proof (cos_acos (m22 U) Bi) as CP.
    assert (SP : 0 < sin (acos (m22 U))) by (apply sin_gt_0; unfold Rabs in G1, G2; destruct (Rcase_abs _), (Rcase_abs _); lra).
    assert (I2 : m22 U * m22 U < 1) by nra.
    rewrite (arctan2_nz (m02 U) (- m12 U)), (arctan2_nz (m20 U) (m21 U)); [eexists; reflexivity | |].
    + apply or_comm, (unit_nz _ _ (m22 U)); lra.
    + destruct (unit_nz (m02 U) (m12 U) (m22 U)); [lra | lra | right | left]; lra.
  - destruct (band_facts U HR G) as (s & Hs & -> & _ & Hsin & CP). cbv zeta in *. unfold tol in Hsin.
    assert (I2 : m02 U * m02 U < 1) by nra.
    rewrite arctan2_nz; [eexists; reflexivity|].
    destruct (unit_nz (m00 U) (m01 U) (m02 U)) as [N|N]; [lra | lra | left; exact N | right].
    destruct Hs as [-> | ->]; lra.
Qed.
