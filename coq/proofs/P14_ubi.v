(* C14 (UBI part): tools vs laue generated definitions, the 2 pi convention; and the tools statements of C02, which follow from the
   laue ones through them *)
From Coq Require Import Reals.
From XV Require Import Mat3 Cell Gen_laue Gen_tools P14_cell P14_rot P01_tools P02_laue.
Open Scope R_scope.

Lemma tl_ub_to_u_b qr UB : tools_ub_to_u_b qr UB = laue_ub_to_u_b qr UB.
Proof. reflexivity. Qed.

Lemma tools_u_to_ubi_def U c : tools_u_to_ubi U c = mscale (2 * PI) (minv (mmul U (tools_form_b_mat c))).
Proof. unfold tools_u_to_ubi; cbv zeta. rewrite mk_scale_r. reflexivity. Qed.

Lemma tl_u_to_ubi U c : is_rot U -> valid_cell c -> tools_u_to_ubi U c = laue_u_to_ubi U c.
Proof.
  intros HU Hc. rewrite tools_u_to_ubi_def, laue_u_to_ubi_def, tl_form_b_mat by exact Hc.
  rewrite mmul_mscale_r. rewrite minv_mscale; [|apply two_pi_nz | apply UB_det; assumption].
  apply mscale_cancel, two_pi_nz.
Qed.

Lemma tools_ubi_to_u_def A :
  tools_ubi_to_u A = mscale (/ (2 * PI)) (mtrans (mmul (tools_form_b_mat (tools_ubi_to_cell A)) A)).
Proof.
  unfold tools_ubi_to_u; cbv zeta. rewrite <- mk_scale_r. reflexivity.
Qed.

Lemma tl_ubi_to_u A : valid_cell (laue_ubi_to_cell A) -> tools_ubi_to_u A = laue_ubi_to_u A.
Proof.
  intros H. rewrite tools_ubi_to_u_def, laue_ubi_to_u_def, tl_ubi_to_cell, tl_form_b_mat by exact H.
  rewrite mmul_mscale_l, mtrans_mscale. apply mscale_cancel_inv, two_pi_nz.
Qed.

Lemma tl_ubi_to_rod A : valid_cell (laue_ubi_to_cell A) -> tools_ubi_to_rod A = laue_ubi_to_rod A.
Proof.
  intros H. unfold tools_ubi_to_rod, laue_ubi_to_rod; cbv zeta. rewrite tl_ubi_to_u by exact H. rewrite tl_u_to_rod. reflexivity.
Qed.

Lemma tl_ubi_to_u_b qr A : tools_ubi_to_u_b qr A = laue_ub_to_u_b qr (mscale (2 * PI) (minv A)).
Proof. unfold tools_ubi_to_u_b; cbv zeta. rewrite mk_scale_r, tl_ub_to_u_b. destruct (laue_ub_to_u_b qr _); reflexivity. Qed.

Lemma tools_ubi_lattice U c h : is_rot U -> valid_cell c ->
  mvmul (tools_u_to_ubi U c) (mvmul (mmul U (tools_form_b_mat c)) h) = vscale (2 * PI) h.
Proof.
  intros HU Hc. rewrite tl_u_to_ubi, tl_form_b_mat by assumption.
  rewrite mmul_mscale_r, mvmul_mscale, mvmul_vscale, laue_ubi_lattice by assumption. reflexivity.
Qed.
Lemma tools_ubi_to_cell_inv U c : is_rot U -> valid_cell c -> tools_ubi_to_cell (tools_u_to_ubi U c) = c.
Proof. intros HU Hc. rewrite tl_ubi_to_cell, tl_u_to_ubi by assumption. apply laue_ubi_to_cell_inv; assumption. Qed.
Lemma tools_ubi_to_u_inv U c : is_rot U -> valid_cell c -> tools_ubi_to_u (tools_u_to_ubi U c) = U.
Proof.
  intros HU Hc. rewrite tl_u_to_ubi by assumption. rewrite tl_ubi_to_u.
  - apply laue_ubi_to_u_inv; assumption.
  - rewrite laue_ubi_to_cell_inv; assumption.
Qed.
Lemma tools_ub_split qr UB : qr_spec UB (fst (qr UB)) (snd (qr UB)) -> 0 < mdet UB ->
  let UBs := tools_ub_to_u_b qr UB in
  mmul (fst UBs) (snd UBs) = UB /\ is_rot (fst UBs) /\ upper_posdiag (snd UBs).
Proof. rewrite tl_ub_to_u_b. apply laue_ub_split. Qed.
Lemma tools_ub_split_unique qr UB U B : qr_spec UB (fst (qr UB)) (snd (qr UB)) -> 0 < mdet UB ->
  is_rot U -> upper_posdiag B -> mmul U B = UB -> tools_ub_to_u_b qr UB = (U, B).
Proof. rewrite tl_ub_to_u_b. apply laue_ub_split_unique. Qed.

Lemma tools_ubi_to_u_b_inv qr U c : is_rot U -> valid_cell c ->
  let UB := mmul U (tools_form_b_mat c) in
  qr_spec UB (fst (qr UB)) (snd (qr UB)) ->
  tools_ubi_to_u_b qr (tools_u_to_ubi U c) = (U, tools_form_b_mat c).
Proof.
  intros HU Hc UB HQ.
  rewrite tl_ubi_to_u_b, tl_u_to_ubi, laue_u_to_ubi_def, minv_invol by (first [assumption | apply UB_det; assumption]).
  rewrite <- mmul_mscale_r, <- tl_form_b_mat by exact Hc.
  apply laue_ub_to_u_b_mmul; [exact HU | apply tools_B_upper_posdiag; exact Hc | exact HQ].
Qed.
Lemma tools_ubi_to_rod_def U c : is_rot U -> valid_cell c -> tools_ubi_to_rod (tools_u_to_ubi U c) = tools_u_to_rod U.
Proof.
  intros HU Hc. rewrite tl_u_to_ubi, tl_ubi_to_rod, tl_u_to_rod by (first [assumption | rewrite laue_ubi_to_cell_inv; assumption]).
  apply laue_ubi_to_rod_def; assumption.
Qed.
