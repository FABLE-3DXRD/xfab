(* C20: the switch, guard sites and the rotation check *)
From Coq Require Import Reals Psatz.
From XV Require Import RealLib Mat3 Checks.
Import ListNotations.
Open Scope R_scope.

Definition is_valid (v : pyval) : bool := match v with PyTrue | PyFalse => true | _ => false end.
Definition as_bool (v : pyval) : bool := match v with PyTrue => true | _ => false end.

(* the last valid value assigned, or the default True *)
Fixpoint last_valid (vs : list pyval) (dflt : bool) : bool :=
  match vs with [] => dflt | v :: r => last_valid r (if is_valid v then as_bool v else dflt) end.

Lemma fold_assign vs s : fold_left (fun s v => fst (assign s v)) vs s = last_valid vs s.
Proof. revert s; induction vs as [|v r IH]; intros s; cbn; [reflexivity|]. rewrite IH. destruct v; reflexivity. Qed.

Theorem switch_last_valid vs : run_assign vs = last_valid vs true.
Proof. apply fold_assign. Qed.

Theorem invalid_assignment_raises_and_keeps s v : is_valid v = false -> assign s v = (s, ValueError).
Proof. destruct v; cbn; intros H; try discriminate; reflexivity. Qed.
Theorem valid_assignment_sets s v : is_valid v = true -> assign s v = (as_bool v, Done).
Proof. destruct v; cbn; intros H; try discriminate; reflexivity. Qed.

Theorem guarded_on_invalid {X Y} ok (f : X -> Y) x : ok x = false -> guarded true ok f x = Raised.
Proof. intros H. unfold guarded. rewrite H. reflexivity. Qed.
Theorem guarded_on_valid {X Y} ok (f : X -> Y) x : ok x = true -> guarded true ok f x = Value (f x).
Proof. intros H. unfold guarded. rewrite H. reflexivity. Qed.
Theorem guarded_off {X Y} ok (f : X -> Y) x : guarded false ok f x = Value (f x).
Proof. reflexivity. Qed.

(* the rotation check accepts every exact proper rotation ... *)
Lemma close_refl r a x : 0 <= r -> 0 <= a -> close r a x x.
Proof. intros Hr Ha. unfold close. replace (x - x) with 0 by ring. rewrite Rabs_R0. pose proof (Rabs_pos x). nra. Qed.

Theorem accepts_rotations U : is_rot U -> check_rotation U.
Proof.
  intros [HO HD]. unfold check_rotation. rewrite HO, HD. unfold allclose_I, mI, rtol, atol_unitary, atol_det; cbn.
  repeat split; apply close_refl; lra.
Qed.

(* ... and rejects a matrix whose determinant is off by more than 1.1e-5; of the nine entries of U'U one diagonal and one
   off-diagonal entry are treated: (0,0) off by more than 1.1e-5, (0,1) by more than 1e-6 *)
Theorem rejects_far_det U : Rabs (mdet U - 1) > 11 / 1000000 -> ~ check_rotation U.
Proof.
  intros H [_ C]. unfold close, rtol, atol_det in C. rewrite Rabs_R1 in C. lra.
Qed.
Theorem rejects_far_diag U : Rabs (m00 (mmul (mtrans U) U) - 1) > 11 / 1000000 -> ~ check_rotation U.
Proof.
  intros H [[C _] _]. unfold close, rtol, atol_unitary in C. rewrite Rabs_R1 in C. lra.
Qed.
Theorem rejects_far_offdiag U : Rabs (m01 (mmul (mtrans U) U)) > 1 / 1000000 -> ~ check_rotation U.
Proof.
  intros H [[_ [C _]] _]. unfold close, rtol, atol_unitary in C. rewrite Rabs_R0, Rminus_0_r in C. lra.
Qed.

(* Euler angles produced by u_to_euler-style ranges pass the range check *)
Theorem euler_in_range_ok p1 P p2 : 0 <= p1 <= 2 * PI -> 0 <= P <= PI -> 0 <= p2 <= 2 * PI -> check_euler p1 P p2.
Proof. intros H1 H2 H3. unfold check_euler. repeat split; lra. Qed.
