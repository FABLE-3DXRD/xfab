(* C08: sites of the unit cell.  The images of a position under an operation list that is a group modulo lattice
   translations fall into classes (one per distinct site of the cell) of one common size (orbit-stabiliser). *)
From Coq Require Import Reals Lra.
From XV Require Import RealLib Mat3 Cplx SGroup Orbit P07 P07_tab.
Import ListNotations.
Open Scope R_scope.

Lemma up_shift r z : up (r + IZR z) = (up r + z)%Z.
Proof.
  symmetry. apply tech_up; destruct (archimed r) as [A1 A2]; rewrite plus_IZR; lra.
Qed.
Lemma frac_shift r z : frac_part (r + IZR z) = frac_part r.
Proof.
  unfold frac_part, Int_part. rewrite up_shift. rewrite !minus_IZR, plus_IZR. ring.
Qed.
Lemma frac_eq_iff a b : frac_part a = frac_part b <-> exists z : Z, a = b + IZR z.
Proof.
  split.
  - unfold frac_part. intros H. exists (Int_part a - Int_part b)%Z. rewrite minus_IZR. lra.
  - intros [z ->]. apply frac_shift.
Qed.

Definition fr3 (v : V3) : V3 := mkV3 (frac_part (vx v)) (frac_part (vy v)) (frac_part (vz v)).
Definition latt_eq (u v : V3) : Prop := exists L, int_vec L /\ u = vadd v L.

Lemma fr3_eq_iff u v : fr3 u = fr3 v <-> latt_eq u v.
Proof.
  destruct u as [a b c], v as [a' b' c']. unfold fr3, latt_eq; cbn [vx vy vz]. split.
  - intros H. injection H as H1 H2 H3. apply frac_eq_iff in H1, H2, H3.
    destruct H1 as [z1 ->], H2 as [z2 ->], H3 as [z3 ->].
    exists (mkV3 (IZR z1) (IZR z2) (IZR z3)). split; [eexists _, _, _; reflexivity | reflexivity].
  - intros (L & (z1 & z2 & z3 & ->) & E). unfold vadd in E; cbn in E. injection E as -> -> ->.
    rewrite !frac_shift. reflexivity.
Qed.

Lemma latt_refl u : latt_eq u u.
Proof. apply fr3_eq_iff. reflexivity. Qed.

(* decidable equality of keys (classical reals) *)
Definition Reqb (a b : R) : bool := if Req_EM_T a b then true else false.
Definition V3eqb (u v : V3) : bool := Reqb (vx u) (vx v) && Reqb (vy u) (vy v) && Reqb (vz u) (vz v).
Lemma Reqb_spec a b : Reqb a b = true <-> a = b.
Proof. unfold Reqb. destruct (Req_EM_T a b); split; congruence. Qed.
Lemma V3eqb_spec u v : V3eqb u v = true <-> u = v.
Proof.
  destruct u as [a b c], v as [a' b' c']. unfold V3eqb; cbn [vx vy vz]. rewrite !andb_true_iff, !Reqb_spec.
  split; [intros [[-> ->] ->]; reflexivity | intros H; injection H as -> -> ->; auto].
Qed.

Definition unimod (Rm : M3) : Prop := exists A : mat, Rm = matR A /\ (mdetZ A = 1 \/ mdetZ A = -1)%Z.

Lemma int_mat_vec A L : int_vec L -> int_vec (mvmul (matR A) L).
Proof.
  intros (x & y & z & ->). destruct A as [[[[[[[[a b] c] d] e] f] g] h] i].
  exists (a * x + b * y + c * z)%Z, (d * x + e * y + f * z)%Z, (g * x + h * y + i * z)%Z.
  unfold mvmul, matR; cbn. rewrite !plus_IZR, !mult_IZR. reflexivity.
Qed.

(* v = (adj A / det A) (A v), and 1 / det A = det A = +-1 *)
Lemma unimod_inv Rm v : unimod Rm -> int_vec (mvmul Rm v) -> int_vec v.
Proof.
  intros (A & -> & HD) (x & y & z & Hw).
  assert (HD' : IZR (mdetZ A) * IZR (mdetZ A) = 1) by (destruct HD as [-> | ->]; lra).
  assert (E : v = vscale (IZR (mdetZ A)) (mvmul (madj (matR A)) (mvmul (matR A) v))).
  { rewrite <- mvmul_mmul, madj_l, mvmul_mscale, mvmul_I, matR_mdet. destruct v as [v1 v2 v3]; unfold vscale; cbn.
    rewrite <- !Rmult_assoc, HD', !Rmult_1_l. reflexivity. }
  rewrite Hw in E. rewrite E. generalize (mdetZ A). intros d. clear.
  destruct A as [[[[[[[[a b] c] d0] e] f] g] h] i].
  exists (d * ((e * i - f * h) * x + (c * h - b * i) * y + (b * f - c * e) * z))%Z,
         (d * ((f * g - d0 * i) * x + (a * i - c * g) * y + (c * d0 - a * f) * z))%Z,
         (d * ((d0 * h - e * g) * x + (b * g - a * h) * y + (a * e - b * d0) * z))%Z.
  unfold vscale, madj, mvmul, matR; cbn. rewrite !mult_IZR, !plus_IZR, !mult_IZR, !minus_IZR, !mult_IZR. f_equal; ring.
Qed.

Section Orbit.
Variable x : V3.
Definition sitekey (o : sop) : V3 := fr3 (apply_op o x).
Definition ccnt (k : V3) (ops : list sop) : nat := cnt sop V3 sitekey V3eqb k ops.
Definition cell_sites (ops : list sop) : list sop := dd sop V3 sitekey V3eqb ops.
Lemma sitekey_iff p q : sitekey p = sitekey q <-> latt_eq (apply_op p x) (apply_op q x).
Proof. apply fr3_eq_iff. Qed.
Lemma cell_sites_distinct ops p : In p ops -> ccnt (sitekey p) (cell_sites ops) = 1%nat.
Proof. intros Hp. unfold ccnt, cell_sites. rewrite (cnt_dd _ _ _ _ V3eqb_spec), (In_inb _ _ _ _ V3eqb_spec _ _ Hp). reflexivity. Qed.

Lemma apply_latt k u v : (exists A, fst k = matR A) -> latt_eq u v -> latt_eq (apply_op k u) (apply_op k v).
Proof.
  intros (A & HA) (L & HL & ->). exists (mvmul (fst k) L). split; [rewrite HA; apply int_mat_vec; exact HL|].
  unfold apply_op. destruct (fst k), v, L, (snd k). unfold vadd, mvmul; cbn. f_equal; ring.
Qed.
Lemma apply_latt_inv k u v : unimod (fst k) -> latt_eq (apply_op k u) (apply_op k v) -> latt_eq u v.
Proof.
  intros HU (L & HL & E).
  assert (HW : int_vec (mvmul (fst k) (vsub u v))).
  { replace (mvmul (fst k) (vsub u v)) with L; [exact HL|].
    unfold apply_op in E. destruct (fst k), u, v, L, (snd k). unfold vadd, vsub, mvmul in *; cbn in *. injection E as E1 E2 E3. f_equal; lra. }
  apply unimod_inv in HW; [|exact HU]. exists (vsub u v). split; [exact HW|]. destruct u, v; unfold vadd, vsub; cbn. f_equal; ring.
Qed.

Definition is_ident (e : sop) : Prop := fst e = mI /\ int_vec (snd e).
Lemma ident_site e : is_ident e -> latt_eq (apply_op e x) x.
Proof.
  intros [HI HL]. exists (snd e). split; [exact HL|]. unfold apply_op. rewrite HI. destruct x, (snd e); unfold vadd, mvmul, mI; cbn. f_equal; ring.
Qed.

(* k and e need not belong to the list *)
Lemma class_size_any ops e k : is_ident e -> unimod (fst k) -> left_closed k ops -> ccnt (sitekey k) ops = ccnt (sitekey e) ops.
Proof.
  intros Hid HU (ops' & HP & HF).
  symmetry. unfold ccnt. rewrite <- (cnt_perm sop V3 sitekey V3eqb (sitekey k) _ _ HP). apply (cnt_Forall2 _ _ _ _ V3eqb_spec).
  clear HP. induction HF as [|p p' l l' [HR HL] _ IH]; constructor; [|exact IH].
  (* sitekey p' is the site of k (p x) and sitekey e that of x: k respects and reflects equality of sites *)
  replace (sitekey p') with (fr3 (apply_op k (apply_op p x))) by (apply fr3_eq_iff, compose_image; assumption).
  replace (sitekey e) with (fr3 x) by (symmetry; apply fr3_eq_iff, ident_site, Hid).
  unfold sitekey. rewrite !fr3_eq_iff. split; [apply apply_latt | apply apply_latt_inv; exact HU].
  destruct HU as (A & HA & _). exists A. exact HA.
Qed.

Theorem class_size ops e k : In e ops -> is_ident e -> In k ops -> unimod (fst k) -> left_closed k ops ->
  ccnt (sitekey k) ops = ccnt (sitekey e) ops.
Proof. intros _ Hid _. apply class_size_any; exact Hid. Qed.

Definition group_like (ops : list sop) : Prop :=
  (exists e, In e ops /\ is_ident e) /\ forall k, In k ops -> unimod (fst k) /\ left_closed k ops.

(* all classes have the size of the stabiliser class *)
Corollary uniform_classes ops : group_like ops -> exists m, forall p, In p ops -> ccnt (sitekey p) ops = m.
Proof.
  intros [(e & He & Hid) Hall]. exists (ccnt (sitekey e) ops). intros p Hp. destruct (Hall p Hp) as [HU HC].
  apply class_size_any; assumption.
Qed.
(* hence a sum over the operations of a term that depends only on the site reached is m times the sum over the distinct sites,
   m = |ops| / number of sites *)
Corollary orbit_sum ops (T : sop -> C) : group_like ops ->
  (forall p q, In p ops -> In q ops -> sitekey p = sitekey q -> T p = T q) ->
  exists m, INR (length ops) = INR m * INR (length (cell_sites ops)) /\
            csum (map T ops) = cscale (INR m) (csum (map T (cell_sites ops))).
Proof.
  intros HG HT. destruct (uniform_classes ops HG) as [m Hcl]. exists m. split.
  - exact (length_uniform sop V3 sitekey V3eqb V3eqb_spec ops m Hcl).
  - exact (csum_uniform sop V3 sitekey V3eqb V3eqb_spec T ops m HT Hcl).
Qed.
End Orbit.
