(* C11: xy_to_detyz sends the raw pixel (x, y) to the index at which trans_orientation stores its value *)
From Coq Require Import Reals Lia String.
From XV Require Import Mat3 ImgLib Ast_detector P11 P11_coor.
Open Scope R_scope.

Lemma INR_flipn b k i : (i < k)%nat -> INR (flipn b k i) = flipR b (INR k) (INR i).
Proof. intros H. destruct b; cbn; [|reflexivity]. rewrite !minus_INR by lia. simpl. ring. Qed.

Section Pix.
Context {A : Type}.
Variables (m n : nat) (img : list (list A)).
Hypothesis HR : rect m n img.
Variables (x y : nat).
Hypothesis Hx : (x < m)%nat.
Hypothesis Hy : (y < n)%nat.

Definition pixel_ok (k : nat) (o : Z * Z * Z * Z) (f : V2 -> R -> R -> V2) (dy dz : nat) : Prop :=
  f (mkV2 (INR x) (INR y)) (INR n) (INR m) = mkV2 (INR dy) (INR dz) /\
  let '(a, b, c, d) := o in
  exists X, ast_detector_trans_orientation img a b c d "forward" = Some X /\ get X dy dz = get img x y.

(* The index map of trans_orientation (get_flips, get_transpose) and the coordinate map xy_map are the same map. *)
Lemma pixel_ok_omat t sx sy k :
  pixel_ok k (omat t sx sy) (xy_fun t sx sy) (if t then flipn sx m x else flipn sy n y) (if t then flipn sy n y else flipn sx m x).
Proof.
  split.
  - rewrite xy_fun_eq by (apply (le_INR 1); lia). unfold xy_map. cbn [p0 p1].
    rewrite <- (INR_flipn sx m x Hx), <- (INR_flipn sy n y Hy). destruct t; reflexivity.
  - destruct t; cbn [omat].
    + exists (flips sy sx img). rewrite trans_orientation_anti. split; [reflexivity|].
      rewrite (get_flips m n) by auto using flipn_lt. rewrite !flipn_invol by assumption. reflexivity.
    + assert (Hm : (1 <= m)%nat) by lia. exists (flips sx sy (img_transpose img)). rewrite trans_orientation_diag. split; [reflexivity|].
      rewrite (get_flips n m) by auto using flipn_lt, rect_transpose. rewrite !flipn_invol by assumption.
      apply (get_transpose m n); assumption.
Qed.
End Pix.
