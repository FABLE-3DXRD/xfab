(* C12: the finite facts about the regenerated symmetry tables (by computation in Q(sqrt 3)) and their transport to
   real matrices, instantiating the list-level Umis theorems. *)
From Coq Require Import Reals Permutation.
From XV Require Import RealLib Mat3 QS3 SymGroup Tab_sym P12_umis.
Import ListNotations.

Lemma sym_all : forallb (fun k => sym_ok k perm_tab rot_tab rot_cached_tab) [1; 2; 3; 4; 5; 6; 7]%nat = true.
Proof. vm_compute. reflexivity. Qed.
Lemma system_ok k : In k [1; 2; 3; 4; 5; 6; 7]%nat -> sym_ok k perm_tab rot_tab rot_cached_tab = true.
Proof. intros Hk. exact (proj1 (forallb_forall _ _) sym_all k Hk). Qed.

Lemma sym_orders : map (fun k => option_map (@length qm) (perms_of k perm_tab)) [1; 2; 3; 4; 5; 6; 7]%nat
                   = map Some [1; 2; 4; 8; 6; 12; 24]%nat
                /\ map (fun k => option_map (@length qm) (rots_of k rot_tab)) [1; 2; 3; 4; 5; 6; 7]%nat
                   = map Some [1; 2; 4; 8; 6; 12; 24]%nat.
Proof. vm_compute. split; reflexivity. Qed.

Definition toRl (G : list qm) : list M3 := map toRm G.

Lemma index_of_spec x l i : index_of x l = Some i -> toRm x = List.nth i (toRl l) mI.
Proof.
  revert i; induction l as [|y l IH]; intros i H; cbn in H; [discriminate|].
  destruct (qmeqb x y) eqn:E.
  - injection H as <-. cbn. apply toRm_eqb; exact E.
  - destruct (index_of x l) as [j|] eqn:F; [|discriminate]. injection H as <-. cbn. apply IH. reflexivity.
Qed.

Lemma all_some_map_spec {A B C} (f : A -> option B) (g : A -> C) (h : B -> C) (l : list A) sigma :
  (forall a i, f a = Some i -> g a = h i) ->
  all_some (map f l) = Some sigma -> map g l = map h sigma.
Proof.
  intros Hf. revert sigma; induction l as [|a l IH]; intros sigma H; cbn in H.
  - injection H as <-. reflexivity.
  - destruct (f a) as [i|] eqn:E; [|discriminate].
    destruct (all_some (map f l)) as [s|] eqn:F; [|discriminate]. injection H as <-.
    cbn. f_equal; [apply Hf; exact E | apply IH; reflexivity].
Qed.

Lemma is_perm_spec l n : is_perm l n = true -> Permutation l (seq 0 n).
Proof.
  unfold is_perm. intros H. apply andb_prop in H. destruct H as [HL HF]. apply Nat.eqb_eq in HL. rewrite forallb_forall in HF.
  apply Permutation_sym. apply NoDup_Permutation_bis; [apply seq_NoDup | rewrite seq_length, HL; apply Nat.le_refl |].
  intros i Hi. apply HF, existsb_exists in Hi. destruct Hi as (x & Hx & E). apply Nat.eqb_eq in E. subst. exact Hx.
Qed.

Lemma map_nth_seq {A} (G : list A) d : map (fun i => List.nth i G d) (seq 0 (length G)) = G.
Proof.
  induction G as [|x G IH]; [reflexivity|]. cbn [length seq map List.nth]. f_equal.
  rewrite <- seq_shift, map_map. exact IH.
Qed.

Lemma reindexed_perm {A} (g : A -> A) (G : list A) d sigma :
  Permutation sigma (seq 0 (length G)) -> map g G = map (fun i => List.nth i G d) sigma -> Permutation (map g G) G.
Proof.
  intros HP ->. apply Permutation_trans with (map (fun i => List.nth i G d) (seq 0 (length G))).
  - apply Permutation_map; exact HP.
  - rewrite map_nth_seq. apply Permutation_refl.
Qed.

(* right_idx, left_idx and trans_idx are the index table of a map f on the operators; a table that passes idx_ok says that f
   permutes G, hence that the real map g it stands for permutes toRl G *)
Lemma idx_ok_perm (f : qm -> qm) (g : M3 -> M3) G n : (forall x, toRm (f x) = g (toRm x)) -> length G = n ->
  idx_ok (all_some (map (fun Rq => index_of (f Rq) G) G)) n = true -> Permutation (map g (toRl G)) (toRl G).
Proof.
  intros Hfg <- H. unfold idx_ok in H. destruct (all_some _) as [sigma|] eqn:E; [|discriminate].
  apply (reindexed_perm _ _ mI sigma).
  - unfold toRl. rewrite map_length. apply is_perm_spec. exact H.
  - unfold toRl at 1. rewrite map_map. apply (all_some_map_spec (fun Rq => index_of (f Rq) G)); [|exact E].
    intros a i Ei. rewrite <- Hfg. apply index_of_spec. exact Ei.
Qed.

Lemma proper_rot_spec Rq : proper_rot Rq = true -> is_rot (toRm Rq).
Proof.
  unfold proper_rot. intros H. apply andb_prop in H. destruct H as [H1 H2]. split.
  - rewrite <- toRm_trans, <- toRm_mmul, <- toRm_I. apply toRm_eqb; exact H1.
  - rewrite <- toR_det. rewrite (toR_eqb _ _ H2). apply toR_1.
Qed.

Definition umis_invariances (G : list M3) : Prop :=
  (forall Rm, In Rm G -> is_rot Rm) /\ In mI G /\
  (forall Gj U1 U2, In Gj G -> Permutation (umis_angles G U1 (mmul U2 Gj)) (umis_angles G U1 U2)) /\
  (forall Gj U1 U2, In Gj G -> Permutation (umis_angles G (mmul U1 Gj) U2) (umis_angles G U1 U2)) /\
  (forall U1 U2, Permutation (umis_angles G U2 U1) (umis_angles G U1 U2)) /\
  (forall Q U1 U2, is_rot Q -> umis_angles G (mmul Q U1) (mmul Q U2) = umis_angles G U1 U2) /\
  (forall U, is_rot U -> In 0%R (umis_angles G U U)) /\
  (forall U1 U2 a, In a (umis_angles G U1 U2) -> (0 <= a <= 180)%R).

(* what the invariances need of the operator list: rotations, the identity among them, and the list permuted by right and left
   multiplication by its members and by transposition *)
Lemma perm_invariances G : (forall Rm, In Rm G -> is_rot Rm) -> In mI G ->
  (forall Gj, In Gj G -> Permutation (map (fun Rm => mmul Rm (mtrans Gj)) G) G) ->
  (forall Gj, In Gj G -> Permutation (map (mmul Gj) G) G) -> Permutation (map mtrans G) G ->
  umis_invariances G.
Proof.
  intros Hrot HI Hr Hl Ht. unfold umis_invariances. split; [exact Hrot|]. split; [exact HI|]. split; [|split; [|split; [|split; [|split]]]].
  - intros Gj U1 U2 HIn. exact (umis_reindex G U1 U2 _ _ _ (Umis_right U1 U2 Gj) (Hr Gj HIn)).
  - intros Gj U1 U2 HIn. exact (umis_reindex G U1 U2 _ _ _ (Umis_left U1 U2 Gj) (Hl Gj HIn)).
  - intros U1 U2. exact (umis_reindex G U1 U2 _ _ _ (Umis_swap U1 U2) Ht).
  - intros Q U1 U2 HQ. apply umis_common_eq; exact HQ.
  - intros U HU. apply umis_self_zero; [exact HU | exact HI].
  - intros U1 U2 a Ha. unfold umis_angles in Ha. apply in_map_iff in Ha. destruct Ha as [Rm [<- _]]. apply Umis_range.
Qed.

(* what sym_ok says, conjunct by conjunct (those about the permutation table and the cached copy left out) *)
Lemma sym_ok_spec k ptab rtab ctab : sym_ok k ptab rtab ctab = true ->
  exists P Rq, perms_of k ptab = Some P /\ rots_of k rtab = Some Rq /\ length Rq = sys_order k /\
    (forall q, In q Rq -> proper_rot q = true) /\ is_group Rq = true /\
    forallb2 (fun r p => forallb (fun B => qmeqb (qmmul (qmmul r B) p) B) (b_basis k)) Rq P = true /\
    (forall q, In q Rq -> idx_ok (right_idx Rq q) (sys_order k) = true /\ idx_ok (left_idx Rq q) (sys_order k) = true) /\
    idx_ok (trans_idx Rq) (sys_order k) = true.
Proof.
  unfold sym_ok. destruct (perms_of k ptab) as [P|]; [|discriminate]. destruct (rots_of k rtab) as [Rq|]; [|discriminate].
  destruct (rots_of k ctab) as [C|]; [|discriminate]. rewrite !andb_true_iff, !forallb_forall.
  intros [[[[[[[[[_ HLen] _] _] HProp] HGrp] Hfix] _] HIdx] HTr].
  refine (ex_intro _ P (ex_intro _ Rq (conj eq_refl (conj eq_refl (conj (proj1 (Nat.eqb_eq _ _) HLen)
            (conj HProp (conj HGrp (conj Hfix (conj _ HTr))))))))).
  intros q Hq. apply andb_prop. exact (HIdx q Hq).
Qed.

(* sym_ok checks each hypothesis of perm_invariances on the table: proper_rot, the identity test of is_group, the three index tables *)
Lemma sym_ok_invariances k ptab rtab ctab Rq : sym_ok k ptab rtab ctab = true -> rots_of k rtab = Some Rq ->
  umis_invariances (toRl Rq) /\ length (toRl Rq) = sys_order k.
Proof.
  intros H HR. destruct (sym_ok_spec _ _ _ _ H) as (_ & Rq' & _ & ER & HLen & HProp & HGrp & _ & HIdx & HTr).
  rewrite HR in ER. injection ER as <-.
  split; [|unfold toRl; rewrite map_length; exact HLen].
  assert (toG : forall Rm, In Rm (toRl Rq) -> exists q, toRm q = Rm /\ In q Rq) by (intros Rm HIn; apply in_map_iff; exact HIn).
  apply perm_invariances.
  - intros Rm HIn. destruct (toG _ HIn) as [q [<- Hq]]. exact (proper_rot_spec q (HProp q Hq)).
  - unfold is_group in HGrp. rewrite !andb_true_iff in HGrp. destruct HGrp as [[[HI _] _] _].
    apply existsb_exists in HI. destruct HI as [q [Hq E]]. rewrite <- toRm_I, (toRm_eqb _ _ E). apply in_map; exact Hq.
  - intros Gj HIn. destruct (toG _ HIn) as [q [<- Hq]].
    refine (idx_ok_perm (fun x => qmmul x (qmtrans q)) _ _ _ _ HLen (proj1 (HIdx q Hq))). intros x. rewrite toRm_mmul, toRm_trans. reflexivity.
  - intros Gj HIn. destruct (toG _ HIn) as [q [<- Hq]]. exact (idx_ok_perm (qmmul q) _ _ _ (toRm_mmul q) HLen (proj2 (HIdx q Hq))).
  - exact (idx_ok_perm qmtrans _ _ _ toRm_trans HLen HTr).
Qed.

Theorem umis_all_systems k Rq : In k [1; 2; 3; 4; 5; 6; 7]%nat -> rots_of k rot_tab = Some Rq ->
  umis_invariances (toRl Rq) /\ length (toRl Rq) = sys_order k.
Proof.
  intros Hk HR. exact (sym_ok_invariances k perm_tab rot_tab rot_cached_tab Rq (system_ok k Hk) HR).
Qed.

Lemma tables_present : forall k, In k [1; 2; 3; 4; 5; 6; 7]%nat -> exists Rq, rots_of k rot_tab = Some Rq.
Proof. intros k Hk. destruct (sym_ok_spec _ _ _ _ (system_ok k Hk)) as (_ & Rq & _ & ER & _). exists Rq. exact ER. Qed.
