(* C15: the multiplicity loop (model/Mult.v) counts the distinct orbit points, for every table with tight translations and every
   position in 24ths.  General proof: the greedy loop is a dedup by key, and the tolerance test coincides with equality of grid keys. *)
From Coq Require Import ZArith List Bool Lia.
From XV Require Import SGroup Mult Dedup SGFacts.
Import ListNotations.
Open Scope Z_scope.

Lemma uniq_count_gdedup imgs : forall kept, uniq_count imgs kept = length (gdedup close imgs kept).
Proof. induction imgs as [|a r IH]; intros kept; cbn [uniq_count gdedup]; [reflexivity|]. destruct (existsb (close a) kept); apply IH. Qed.
Lemma dedup_gdedup l : forall seen, dedup l seen = length (gdedup key_eqb l seen).
Proof. induction l as [|a r IH]; intros seen; cbn [dedup gdedup]; [reflexivity|]. destruct (existsb (key_eqb a) seen); apply IH. Qed.

Lemma uniq_dedup (kf : pt -> key) imgs kept :
  (forall a b, In a (imgs ++ kept) -> In b (imgs ++ kept) -> close a b = key_eqb (kf a) (kf b)) ->
  uniq_count imgs kept = dedup (map kf imgs) (map kf kept).
Proof. intros H. rewrite uniq_count_gdedup, dedup_gdedup, <- (gdedup_map close key_eqb kf imgs kept H), map_length. reflexivity. Qed.

(* tolerance test = equality of grid keys.  Coordinates are scaled by 24 * 10^6, so the 24ths are the multiples of 10^6; a
   coordinate is on the grid when it is within 8 of the nearest of them. *)
Definition rnd (c : Z) : Z := (c + 500000) / 1000000.
Definition ongrid (c : Z) : Prop := -8 <= c - rnd c * 1000000 <= 8.
Definition rkey (a : pt) : key := let '(x, y, z) := a in (rnd x mod 24, rnd y mod 24, rnd z mod 24).
Definition ongrid3 (a : pt) : Prop := let '(x, y, z) := a in ongrid x /\ ongrid y /\ ongrid z.

(* two coordinates whose grid points agree modulo the lattice are within 16, two others are at least 10^6 - 16 apart *)
Lemma dist1_grid c c' : ongrid c -> ongrid c' ->
  if rnd c mod 24 =? rnd c' mod 24 then 0 <= dist1 c c' <= 16 else 999984 <= dist1 c c'.
Proof.
  unfold ongrid, dist1, UNIT. generalize (rnd c) (rnd c'). intros g g' H1 H2.
  destruct (Z.eqb_spec (g mod 24) (g' mod 24)); cbv zeta; Z.div_mod_to_equations; lia.
Qed.

Lemma close_key a b : ongrid3 a -> ongrid3 b -> close a b = key_eqb (rkey a) (rkey b).
Proof.
  destruct a as [[x y] z], b as [[x' y'] z']. cbn [ongrid3 close rkey key_eqb]. intros (N1 & N2 & N3) (M1 & M2 & M3). unfold TOL.
  pose proof (dist1_grid _ _ N1 M1). pose proof (dist1_grid _ _ N2 M2). pose proof (dist1_grid _ _ N3 M3).
  destruct (rnd x mod 24 =? rnd x' mod 24), (rnd y mod 24 =? rnd y' mod 24), (rnd z mod 24 =? rnd z' mod 24); cbn [andb];
    [apply Z.ltb_lt | apply Z.ltb_ge ..]; lia.
Qed.

(* A tabulated translation t (in millionths) with 12 t within 4 of k * 10^6 gives 24 t within 8 of 2 k * 10^6: the image coordinate
   is on the grid, at the point x + 2 k. *)
Lemma image_coord x t k : near12 t = true -> snap12 t = Some k ->
  ongrid (x * 1000000 + t * 24) /\ rnd (x * 1000000 + t * 24) mod 24 = (x + 2 * k) mod 24.
Proof.
  unfold near12, snap12, ongrid, rnd. intros T. apply Z.leb_le in T. destruct (_ <? _); [|discriminate]. intros E; injection E as <-.
  Z.div_mod_to_equations. lia.
Qed.

Definition tight3 (t : list Z) : bool := match t with [a; b; c] => near12 a && near12 b && near12 c | _ => false end.

Lemma image_rkey R t v p : snap3 t = Some v -> tight3 t = true ->
  ongrid3 (image R t p) /\ rkey (image R t p) = orbit_point (R, v) p.
Proof.
  intros Ev T. destruct (snap3_inv t v Ev) as (a & b & c & -> & Ea & Eb & Ec). destruct v as [[ka kb] kc]. cbn [fst snd] in *.
  cbn [tight3] in T. rewrite !andb_true_iff in T. destruct T as [[Ta Tb] Tc].
  unfold image, orbit_point. destruct (mvZ R p) as [[x y] z]. cbn [nth ongrid3 rkey].
  destruct (image_coord x a ka Ta Ea) as [Ox ->], (image_coord y b kb Tb Eb) as [Oy ->], (image_coord z c kc Tc Ec) as [Oz ->]. auto.
Qed.

Lemma images_spec rots trans ops p : ops_of rots trans = Some ops -> forallb tight3 trans = true ->
  exists Rs, all_mats rots = Some Rs /\ length Rs = length trans /\
    let imgs := map (fun Rt => image (fst Rt) (snd Rt) p) (combine Rs trans) in
    Forall ongrid3 imgs /\ map rkey imgs = map (fun o => orbit_point o p) ops.
Proof.
  revert rots trans ops. refine (ops_of_ind _ _ _).
  - exists []. cbn. repeat split; constructor.
  - intros r t R v rs ts l ER Ev _ _ IH T. cbn [forallb] in T. apply andb_prop in T. destruct T as [T1 T2].
    destruct (IH T2) as (Rs & EA & EL & IF & IM). destruct (image_rkey R t v p Ev T1) as [N K].
    exists (R :: Rs). cbn [all_mats]. rewrite ER, EA. split; [reflexivity|]. split; [cbn; rewrite EL; reflexivity|].
    cbn [combine map fst snd]. split; [constructor; [exact N | exact IF] | f_equal; [exact K | exact IM]].
Qed.

Theorem mult_is_orbit_size s ops p : ops_of (sg_rot s) (sg_trans s) = Some ops -> trans_tight s = true ->
  model_mult s p = Some (orbit_size ops p).
Proof.
  intros HO HT. unfold trans_tight in HT.
  destruct (images_spec _ _ _ p HO HT) as (Rs & EA & EL & IF & IM). cbv zeta in IF, IM.
  unfold model_mult, images. rewrite EA. rewrite (proj2 (Nat.eqb_eq _ _) EL). f_equal.
  set (imgs := map (fun Rt => image (fst Rt) (snd Rt) p) (combine Rs (sg_trans s))) in *.
  unfold orbit_size. rewrite <- IM. change (@nil key) with (map rkey (@nil pt)).
  apply uniq_dedup. rewrite app_nil_r. intros a b Ha Hb.
  rewrite Forall_forall in IF. apply close_key; apply IF; assumption.
Qed.

Lemma orbit_point_shift o p v : orbit_point o (let '(x, y, z) := p in let '(a, b, c) := v in (x + 24 * a, y + 24 * b, z + 24 * c)) = orbit_point o p.
Proof.
  assert (M : forall u w k, u = w + k * 24 -> u mod 24 = w mod 24) by (intros u w k ->; apply Z.mod_add; lia).
  destruct o as [R [[ta tb] tc]], p as [[x y] z], v as [[a b] c]. destruct R as [[[[[[[[r0 r1] r2] r3] r4] r5] r6] r7] r8].
  cbn [orbit_point mvZ]. f_equal; [f_equal|].
  - apply (M _ _ (r0 * a + r1 * b + r2 * c)). ring.
  - apply (M _ _ (r3 * a + r4 * b + r5 * c)). ring.
  - apply (M _ _ (r6 * a + r7 * b + r8 * c)). ring.
Qed.

Lemma orbit_size_shift ops p v : orbit_size ops (let '(x, y, z) := p in let '(a, b, c) := v in (x + 24 * a, y + 24 * b, z + 24 * c)) = orbit_size ops p.
Proof. unfold orbit_size. f_equal. apply map_ext. intros o. apply orbit_point_shift. Qed.

Theorem orbit_size_counts ops p : exists u, NoDup u /\ length u = orbit_size ops p /\
  (forall k, In k u <-> exists o, In o ops /\ orbit_point o p = k).
Proof.
  destruct (gdedup_spec key_eqb z3_eqb_spec (map (fun o => orbit_point o p) ops) [] (NoDup_nil _)) as [N I].
  exists (gdedup key_eqb (map (fun o => orbit_point o p) ops) []). split; [exact N|]. split; [symmetry; apply dedup_gdedup|].
  intros k. rewrite I, in_map_iff. cbn. split.
  - intros [[o [E H]]|[]]. exists o. tauto.
  - intros [o [H E]]. left. exists o. tauto.
Qed.
