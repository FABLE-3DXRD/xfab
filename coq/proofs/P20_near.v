(* C20: rotations perturbed entrywise by at most 1e-7 (float32-precision and better) pass the rotation check:
   (U + E)'(U + E) - I = U'E + E'U + E'E has entries below 6d + 3d^2, and det is a triple product (lib/MatBound.v). *)
From Coq Require Import Reals Lra.
From XV Require Import Mat3 MatBound Checks.
Open Scope R_scope.

Definition small (E : M3) (d : R) : Prop :=
  Rabs (m00 E) <= d /\ Rabs (m01 E) <= d /\ Rabs (m02 E) <= d /\ Rabs (m10 E) <= d /\ Rabs (m11 E) <= d /\ Rabs (m12 E) <= d /\
  Rabs (m20 E) <= d /\ Rabs (m21 E) <= d /\ Rabs (m22 E) <= d.

Lemma allclose_I_bound r a M : 0 <= r -> mbound a (msub M mI) -> allclose_I r a M.
Proof.
  intros Hr (B0 & B1 & B2 & B3 & B4 & B5 & B6 & B7 & B8). cbn in *.
  unfold allclose_I, close. rewrite Rabs_R0, Rabs_R1. repeat split; lra.
Qed.

Lemma gram_perturb U E d : is_orth U -> mbound d E ->
  mbound (3 * (1 * d) + (3 * (d * 1) + 3 * (d * d))) (msub (mmul (mtrans (madd U E)) (madd U E)) mI).
Proof.
  intros HO HE. pose proof (orth_mbound U HO) as HU.
  replace (msub _ mI) with (madd (mmul (mtrans U) E) (madd (mmul (mtrans E) U) (mmul (mtrans E) E)))
    by (rewrite <- HO; mat_ring).
  repeat apply mbound_madd; apply mbound_mmul; auto using mbound_mtrans.
Qed.

Theorem accepts_near U E : is_rot U -> small E (1 / 10000000) -> check_rotation (madd U E).
Proof.
  intros [HO HD] HE. change (mbound (1 / 10000000) E) in HE. split.
  - apply allclose_I_bound; [unfold rtol; lra|].
    eapply mbound_le; [|apply gram_perturb; [exact HO | exact HE]]. unfold atol_unitary. lra.
  - pose proof (mdet_perturb U E _ (orth_mbound U HO) HE) as B. rewrite HD in B.
    unfold close, rtol, atol_det. rewrite Rabs_R1. lra.
Qed.
