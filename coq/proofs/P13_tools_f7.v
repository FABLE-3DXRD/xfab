(* C13, known finding F7 (open): the closure of the theorems in props/C13_findings.v.  Nothing outside that file depends on this one, so a
   repair of tools.ubi_to_u_and_eps breaks only obligations that exist because of the finding. *)
From Coq Require Import Reals Lra.
From XV Require Import Mat3 Cell Gen_laue Gen_tools P02_laue P14_cell P13_laue P13_ubi P13_tools P14_ubi P14_rest.
Open Scope R_scope.

Lemma tools_ubi_to_u_and_eps_def A c :
  tools_ubi_to_u_and_eps A c =
  (tools_ubi_to_u A, tools_b_to_epsilon (minv (mmul A (tools_ubi_to_u A))) c).
Proof. reflexivity. Qed.

(* k (e + I) - I on the six components of a symmetric matrix *)
Definition eps_scaled (k : R) (e : V6) : V6 :=
  mkV6 (k * (c0 e + 1) - 1) (k * c1 e) (k * c2 e) (k * (c3 e + 1) - 1) (k * c4 e) (k * (c5 e + 1) - 1).
Lemma sym_minus_I_scale k M : sym_minus_I (mscale k M) = eps_scaled k (sym_minus_I M).
Proof. destruct M. unfold sym_minus_I, eps_scaled, mscale; cbn. f_equal; field. Qed.

(* on one and the same UBI, tools returns laue's U and laue's strain rescaled: its reference B carries the factor 2 pi, the B it
   reads off the UBI does not *)
Lemma tl_ubi_to_u_and_eps A c : valid_cell (laue_ubi_to_cell A) -> valid_cell c ->
  tools_ubi_to_u_and_eps A c = (fst (laue_ubi_to_u_and_eps A c), eps_scaled (2 * PI) (snd (laue_ubi_to_u_and_eps A c))).
Proof.
  intros VA Hc. rewrite tools_ubi_to_u_and_eps_def, laue_ubi_to_u_and_eps_def, (tl_ubi_to_u A VA). cbn [fst snd]. f_equal.
  rewrite tools_b_to_epsilon_def, tl_form_b_mat by exact Hc.
  rewrite mmul_mscale_l, sym_minus_I_scale, <- laue_b_to_epsilon_def. reflexivity.
Qed.

(* F7, formally: what tools.ubi_to_u_and_eps returns on a UBI built in tools' own convention, 2 pi (U B_eps)^-1 with B_eps = tools.epsilon_to_b.
   U is recovered; the strain comes back as 2 pi (eps + I) - I, never eps. *)
Lemma tools_ubi_u_eps_actual U eps c : is_rot U -> valid_cell c -> strain_small eps ->
  tools_ubi_to_u_and_eps (mscale (2 * PI) (minv (mmul U (tools_epsilon_to_b eps c)))) c = (U, eps_scaled (2 * PI) eps).
Proof.
  intros HU Hc Hs. pose proof (upper_posdiag_det _ (laue_strained_b_posdiag eps c Hc Hs)) as DB.
  (* the tools-convention UBI is the laue UBI *)
  rewrite tl_epsilon_to_b by (first [assumption | apply strain_small_ok; assumption]).
  rewrite mmul_mscale_r, minv_mscale, mscale_cancel by (first [apply two_pi_nz | rewrite rot_mmul_det by exact HU; lra]).
  rewrite tl_ubi_to_u_and_eps; [| apply laue_ubi_cell; [exact HU | lra] | exact Hc].
  rewrite laue_ubi_u_eps by assumption. reflexivity.
Qed.

Lemma eps_scaled_differs eps : strain_small eps -> eps_scaled (2 * PI) eps <> eps.
Proof.
  intros (S0 & _ & _) E. destruct eps as [e11 e12 e13 e22 e23 e33]. unfold eps_scaled in E; cbn in *. injection E as E0 _ _ _ _ _.
  assert (3 < PI) by (pose proof PI2_3_2; lra). nra.
Qed.
