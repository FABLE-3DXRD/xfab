(* C14: sysabs / sysabs_unique, AST-translated from tools.py and laue.py, are the same function *)
From XV Require Import Ast_tools Ast_laue.
Lemma tl_sysabs_unique hkl sc : ast_tools_sysabs_unique hkl sc = ast_laue_sysabs_unique hkl sc.
Proof. reflexivity. Qed.
Lemma tl_sysabs hkl sc cs ch : ast_tools_sysabs hkl sc cs ch = ast_laue_sysabs hkl sc cs ch.
Proof. reflexivity. Qed.
