(* C05: with the real reflection conditions (sysabs, AST-translated) and operator extinction as the meaning of "allowed":
   for shells that fit in the box [-7,7]^3 the model of genhkl_all lists exactly the reflections no operation extinguishes, each once
   (monotone systems). *)
From Coq Require Import ZArith List Bool String Lia.
From XV Require Import SGroup HklModel Traverse Tab_segm Ast_laue Tab_sg_all P05 P05_complete P05_final P05_extinv P04 SGFacts.
Import ListNotations.
Open Scope Z_scope.

Lemma box_spec H x y z : 0 <= H -> - H <= x <= H -> - H <= y <= H -> - H <= z <= H -> In (x, y, z) (box H).
Proof.
  intros H0 Hx Hy Hz. unfold box. set (r := map (fun i => Z.of_nat i - H) (seq 0 (Z.to_nat (2 * H + 1)))).
  assert (Hr : forall v, - H <= v <= H -> In v r).
  { intros v Hv. unfold r. apply in_map_iff. exists (Z.to_nat (v + H)). split; [rewrite Z2Nat.id; lia|]. apply in_seq. lia. }
  apply in_flat_map. exists x. split; [apply Hr; exact Hx|]. apply in_flat_map. exists y. split; [apply Hr; exact Hy|].
  apply in_map_iff. exists z. split; [reflexivity | apply Hr; exact Hz].
Qed.

(* the traversal only looks at `allowed` on cone points inside the shell *)
Section Ext.
Variable G : metricZ.
Variables Tmin Tmax Tterm : Z.
Variables al1 al2 : hkl -> bool.

Lemma keep_ext x : (Tmin < qform G x <= Tmax -> al1 x = al2 x) -> keep G Tmin Tmax al1 x = keep G Tmin Tmax al2 x.
Proof.
  intros H. unfold keep. destruct (Tmin <? qform G x) eqn:E1; [|rewrite !andb_false_r; reflexivity].
  destruct (qform G x <=? Tmax) eqn:E2; [|rewrite !andb_false_r; reflexivity].
  apply Z.ltb_lt in E1. apply Z.leb_le in E2. rewrite (H (conj E1 E2)). reflexivity.
Qed.
Lemma segment_ext fuel seg : (forall x, in_cone seg x -> Tmin < qform G x <= Tmax -> al1 x = al2 x) ->
  segment G Tmin Tmax Tterm al1 fuel seg = segment G Tmin Tmax Tterm al2 fuel seg.
Proof.
  intros H. unfold segment. rewrite !lloop_visited. destruct (visited _ _ _ _ _ _ _ _ _) as [v|] eqn:V; [|reflexivity]. cbn. f_equal.
  apply filter_ext_in. intros x Hx. apply keep_ext. apply H.
  destruct (proj1 (visited_spec V x) Hx) as (t & _ & ->). apply pt_in_cone.
Qed.
Lemma all_segments_ext fuel segs : (forall seg x, In seg segs -> in_cone seg x -> Tmin < qform G x <= Tmax -> al1 x = al2 x) ->
  all_segments G Tmin Tmax Tterm al1 fuel segs = all_segments G Tmin Tmax Tterm al2 fuel segs.
Proof.
  induction segs as [|s r IH]; intros H; cbn; [reflexivity|].
  rewrite (segment_ext fuel s), IH; [reflexivity | intros seg x Hs; apply H; right; exact Hs | intros x; apply H; left; reflexivity].
Qed.
End Ext.

Section Box.
Variable s : sgrec.
Hypothesis Hs : In s all_settings.
Variables (ops : list op) (L : list mat) (segs : list (list (list Z))) (rots : list mat).
Hypothesis Hops : ops_of (sg_rot s) (sg_trans s) = Some ops.
Hypothesis Hrots : all_mats (firstn (Z.to_nat (sg_nuniq s)) (sg_rot s)) = Some rots.
Hypothesis HL : L = rots ++ map mnegZ rots.
Hypothesis Hsegs : lookup_segm segm_laue (sg_laue s) (sg_choice s) = Some segs.
Variable G : metricZ.
Variables Tmin Tmax Tterm : Z.
Hypothesis Hc : (sg_choice s = "standard" \/ sg_choice s = "hexagonal")%string.
Hypothesis HM : monotone_system (sg_laue s) (sg_choice s) G.
Hypothesis H0 : 0 <= Tmin.
Hypothesis HT : Tmax <= Tterm.
Hypothesis Hbox : forall x y z, qform G (x, y, z) <= Tmax -> (-7 <= x <= 7) /\ (-7 <= y <= 7) /\ (-7 <= z <= 7).

Definition allowedS (h : hkl) : bool := ast_laue_sysabs (let '(x, y, z) := h in [x; y; z]) (sg_syscond s) (sg_csys s) (sg_choice s) =? 0.
Definition allowedE (h : hkl) : bool := negb (extinct ops h).

Lemma in_box h : qform G h <= Tmax -> In h (box 7).
Proof. destruct h as [[x y] z]. intros Hq. destruct (Hbox x y z Hq) as (Hx & Hy & Hz). apply box_spec; lia. Qed.

Lemma sysabs_is_extinction seg x : In seg segs -> in_cone seg x -> x <> (0, 0, 0) -> qform G x <= Tmax -> allowedS x = allowedE x.
Proof.
  intros Hseg Hcone Hnz Hq. pose proof (proj1 (forallb_forall _ _) sysabs_all s Hs) as Hok. unfold sysabs_ok in Hok. rewrite Hops, Hsegs in Hok.
  apply andb_prop in Hok. destruct Hok as [HU HF]. unfold unimodular_segs in HU. rewrite forallb_forall in HU, HF. specialize (HF x (in_box x Hq)).
  assert (R : existsb (fun sg => in_region sg x) segs = true).
  { apply existsb_exists. exists seg. split; [exact Hseg | exact (cone_region seg x (HU seg Hseg) Hcone)]. }
  assert (N : hkl_eqb x (0, 0, 0) = false) by (apply not_true_is_false; rewrite hkl_eqb_spec; exact Hnz).
  rewrite R, N in HF. apply eqb_prop in HF. exact HF.
Qed.

Lemma extinction_invariant R h : In R L -> qform G h <= Tmax -> allowedE (vmZ h R) = allowedE h.
Proof.
  intros HR _. unfold allowedE. f_equal. rewrite HL in HR.
  destruct (setting_ops s Hs) as (ops' & Ho & Hok). rewrite Hops in Ho. injection Ho as <-.
  exact (extinct_laue s ops rots Hops Hok Hrots R h HR).
Qed.

Lemma rows_same fuel : all_segments G Tmin Tmax Tterm allowedS fuel segs = all_segments G Tmin Tmax Tterm allowedE fuel segs.
Proof.
  apply all_segments_ext. intros seg x Hseg Hcone [Hlo Hhi].
  exact (sysabs_is_extinction seg x Hseg Hcone (shell_nz G Tmin x H0 Hlo) Hhi).
Qed.

Theorem exact_with_real_sysabs fuel reps : all_segments G Tmin Tmax Tterm allowedS fuel segs = Some reps ->
  NoDup (flat_map (expand rots) reps) /\
  forall h, In h (flat_map (expand rots) reps) <-> (extinct ops h = false /\ Tmin < qform G h <= Tmax).
Proof.
  intros H. rewrite rows_same in H.
  destruct (exact_in_monotone_systems s L segs rots G Tmin Tmax Tterm allowedE fuel reps Hs Hrots HL Hsegs Hc HM H0 HT extinction_invariant H) as [ND Hiff].
  split; [exact ND|]. intros h. rewrite Hiff. unfold allowedE. rewrite negb_true_iff. tauto.
Qed.
End Box.

Example box_hypothesis_satisfiable : forall x y z, qform (mkMet 7 11 13 0 0 0) (x, y, z) <= 300 -> (-7 <= x <= 7) /\ (-7 <= y <= 7) /\ (-7 <= z <= 7).
Proof. intros x y z. unfold qform; cbn [g11 g22 g33 g12 g13 g23]. intros H. repeat split; nia. Qed.
