(* C09 for xfab.laue: find_omega_general (generated, piecewise) refines a readable model; the model is sound,
   in range and complete.  tth / tth2. *)
From Coq Require Import Reals Psatz.
From XV Require Import RealLib Mat3 OmegaSolve Cell Gen_laue P01_laue P03_laue.
Import ListNotations.
Open Scope R_scope.

Definition normalise_to (tth : R) (g : V3) : V3 :=
  let n := sqrt (vx g * vx g + vy g * vy g + vz g * vz g) in
  mkV3 (sin (tth / 2) * vx g / n) (sin (tth / 2) * vy g / n) (sin (tth / 2) * vz g / n).

Lemma xy_nz_xyz g : vx g * vx g + vy g * vy g <> 0 -> vx g * vx g + vy g * vy g + vz g * vz g <> 0.
Proof. intros H Z. apply H. nra. Qed.

Lemma vnorm_pos g : vx g * vx g + vy g * vy g + vz g * vz g <> 0 -> 0 < sqrt (vx g * vx g + vy g * vy g + vz g * vz g).
Proof. intros H. apply sqrt_lt_R0. assert (0 <= vx g * vx g + vy g * vy g + vz g * vz g) by nra. lra. Qed.

Lemma normalise_length tth g : vx g * vx g + vy g * vy g + vz g * vz g <> 0 ->
  let gn := normalise_to tth g in
  vx gn * vx gn + vy gn * vy gn + vz gn * vz gn = sin (tth / 2) * sin (tth / 2).
Proof.
  intros H. pose proof (vnorm_pos g H) as P. unfold normalise_to; cbv zeta; cbn [vx vy vz].
  assert (S : sqrt (vx g * vx g + vy g * vy g + vz g * vz g) * sqrt (vx g * vx g + vy g * vy g + vz g * vz g)
              = vx g * vx g + vy g * vy g + vz g * vz g) by (apply sqrt_sqrt; nra).
  set (n := sqrt _) in *.
  transitivity (sin (tth / 2) * sin (tth / 2) * (vx g * vx g + vy g * vy g + vz g * vz g) / (n * n)); [field; lra | rewrite S; field; exact H].
Qed.

Lemma normalise_xy tth g : 0 < tth < PI -> vx g * vx g + vy g * vy g <> 0 ->
  let gn := normalise_to tth g in vx gn * vx gn + vy gn * vy gn <> 0.
Proof.
  intros Ht H. pose proof (vnorm_pos g (xy_nz_xyz g H)) as P. assert (0 < sin (tth / 2)) by (apply sin_gt_0; lra).
  unfold normalise_to; cbv zeta; cbn [vx vy]. set (n := sqrt _) in *. intros Z. apply H.
  transitivity (n / sin (tth / 2) * (n / sin (tth / 2)) *
                (sin (tth / 2) * vx g / n * (sin (tth / 2) * vx g / n) + sin (tth / 2) * vy g / n * (sin (tth / 2) * vy g / n)));
    [field; lra | rewrite Z; ring].
Qed.

(* coefficients of  a cos w + b sin w = c  for the axis tilted by Rx(wx).Ry(wy) *)
Definition gen_a (gn : V3) (wy : R) := vx gn * cos wy.
Definition gen_b (gn : V3) (wy : R) := - (vy gn * cos wy).
Definition gen_c (gn : V3) (wy : R) := - (vx gn * vx gn + vy gn * vy gn + vz gn * vz gn) - vz gn * sin wy.

Definition omega_general_model (gn : V3) (tth wx wy : R) : list R * list R :=
  solver_model gn tth (fun w => laue_form_omega_mat_general w wx wy) (gen_a gn wy) (gen_b gn wy) (gen_c gn wy).

Lemma laue_general_refines g tth wx wy :
  laue_find_omega_general g tth wx wy =
  let gn := normalise_to tth g in
  if Rlt_dec (Rabs ((vx gn * vx gn + vy gn * vy gn + vz gn * vz gn) - sin (tth / 2) ^ 2)) (1 / 1000000000)
  then Some (omega_general_model gn tth wx wy) else None.
Proof. exact (solver_code_shape (normalise_to tth g) tth (fun w => laue_form_omega_mat_general w wx wy) _ _ _ _ _). Qed.

Lemma general_sinusoid gn wx wy :
  sinusoid gn (fun w => laue_form_omega_mat_general w wx wy) (gen_a gn wy) (gen_b gn wy) (gen_c gn wy).
Proof.
  intros w. split; [apply laue_omega_general_rot|].
  rewrite laue_omega_general_comp. destruct gn as [x y z]. unfold gen_a, gen_b, gen_c. mcbv. ring.
Qed.

Lemma assert_passes tth g : vx g * vx g + vy g * vy g + vz g * vz g <> 0 ->
  let gn := normalise_to tth g in
  Rabs ((vx gn * vx gn + vy gn * vy gn + vz gn * vz gn) - sin (tth / 2) ^ 2) < 1 / 1000000000.
Proof.
  intros Hg. pose proof (normalise_length tth g Hg) as Hn. cbv zeta in *. rewrite Hn.
  replace (sin (tth / 2) * sin (tth / 2) - sin (tth / 2) ^ 2) with 0 by (cbn [Rpow_def.pow]; ring).
  rewrite Rabs_R0. lra.
Qed.

Theorem laue_find_omega_general_sound g tth wx wy oms etas :
  0 < tth < PI -> vx g * vx g + vy g * vy g + vz g * vz g <> 0 ->
  let gn := normalise_to tth g in
  gen_a gn wy * gen_a gn wy + gen_b gn wy * gen_b gn wy <> 0 ->
  laue_find_omega_general g tth wx wy = Some (oms, etas) ->
  (forall w e, In (w, e) (combine oms etas) -> diffracts (laue_form_omega_mat_general w wx wy) gn tth e) /\
  (forall w, In w oms -> - PI < w <= PI) /\
  (forall w, - PI < w <= PI -> vx (mvmul (laue_form_omega_mat_general w wx wy) gn) = - (sin (tth / 2) * sin (tth / 2)) -> In w oms) /\
  (gen_a gn wy * gen_a gn wy + gen_b gn wy * gen_b gn wy - gen_c gn wy * gen_c gn wy < 0 -> oms = []) /\
  (0 < gen_a gn wy * gen_a gn wy + gen_b gn wy * gen_b gn wy - gen_c gn wy * gen_c gn wy -> exists w1 w2, oms = [w1; w2] /\ w1 <> w2).
Proof.
  intros Ht Hg gn Hab E. rewrite laue_general_refines in E. apply if_Some_inv in E.
  exact (solver_model_sound gn tth _ _ _ _ Ht (normalise_length tth g Hg) (general_sinusoid gn wx wy) Hab oms etas E).
Qed.

Theorem laue_find_omega_general_never_asserts g tth wx wy :
  vx g * vx g + vy g * vy g + vz g * vz g <> 0 -> laue_find_omega_general g tth wx wy <> None.
Proof.
  intros Hg. rewrite laue_general_refines. cbv zeta.
  destruct (Rlt_dec _ _) as [L|L]; [discriminate|]. exfalso. apply L. apply (assert_passes tth g Hg).
Qed.

Lemma laue_tth_def c h wl : laue_tth c h wl = 2 * asin (wl * laue_sintl c h).
Proof. reflexivity. Qed.

Lemma laue_tth_eq_tth2 U c h wl : is_rot U -> valid_cell c -> 0 < vnorm2 (mvmul (laue_form_b_mat c) h) ->
  laue_tth2 (mvmul (mmul U (laue_form_b_mat c)) h) wl = laue_tth c h wl.
Proof.
  intros HU Hc Hp. rewrite laue_tth_def, laue_sintl_norm by exact Hc. unfold laue_tth2; cbv zeta.
  rewrite mvmul_mmul.
  set (v := mvmul (laue_form_b_mat c) h) in *.
  pose proof (rot_vnorm2 U v HU) as N. unfold vnorm2, vdot in N. unfold vnorm.
  unfold vnorm2, vdot in Hp |- *.
  rewrite N. pose proof (sqrt_lt_R0 _ Hp) as S. f_equal. f_equal. field. lra.
Qed.
