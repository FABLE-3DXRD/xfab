(* C05: the model of genhkl_all lists exactly the allowed reflections of the shell, each once, for every setting of the
   orthorhombic, tetragonal, cubic and hexagonal-axes systems (and orthogonal monoclinic / triclinic metrics) and every conforming
   reciprocal metric; the only hypothesis left about the reflection conditions is their invariance under the Laue group. *)
From Coq Require Import ZArith List String Lia.
From XV Require Import SGroup HklModel Traverse Tab_segm Tab_sg_all P05_complete P06_fd_main P05_nodup P05_qinv.
Import ListNotations.
Open Scope Z_scope.

Theorem exact_in_monotone_systems s L segs rots G Tmin Tmax Tterm allowed fuel reps :
  In s all_settings -> all_mats (firstn (Z.to_nat (sg_nuniq s)) (sg_rot s)) = Some rots -> L = rots ++ map mnegZ rots ->
  lookup_segm segm_laue (sg_laue s) (sg_choice s) = Some segs ->
  (sg_choice s = "standard" \/ sg_choice s = "hexagonal")%string -> monotone_system (sg_laue s) (sg_choice s) G ->
  0 <= Tmin -> Tmax <= Tterm -> (forall R h, In R L -> qform G h <= Tmax -> allowed (vmZ h R) = allowed h) ->
  all_segments G Tmin Tmax Tterm allowed fuel segs = Some reps ->
  NoDup (flat_map (expand rots) reps) /\
  forall h, In h (flat_map (expand rots) reps) <-> (allowed h = true /\ Tmin < qform G h <= Tmax).
Proof.
  intros Hs Hrots HL Hsegs Hc HM H0 HT Ha H.
  apply (all_rows_exact s L segs rots G Tmin Tmax Tterm allowed fuel reps Hs Hrots HL Hsegs H0 HT); try assumption.
  - intros seg Hseg. apply (monotone_system_ok (sg_laue s) (sg_choice s) G Hc HM). unfold segs_of. rewrite Hsegs. exact Hseg.
  - apply (qinv_setting s L G Hs (laue_mats_L s L rots Hrots HL) Hc HM).
Qed.

(* non-vacuity: Pnma (62) with an orthorhombic metric is such a setting *)
Example monotone_setting_exists : exists s, In s all_settings /\ sg_no s = 62 /\ (sg_choice s = "standard")%string /\
  monotone_system (sg_laue s) (sg_choice s) (mkMet 7 11 13 0 0 0).
Proof.
  destruct (find (fun r => sg_no r =? 62) all_settings) as [s|] eqn:E; [|vm_compute in E; discriminate].
  pose proof (find_some _ _ E) as [Hin Hno]. exists s. split; [exact Hin|]. apply Z.eqb_eq in Hno. split; [exact Hno|].
  assert (E' := E). vm_compute in E'. injection E' as <-. split; [reflexivity|].
  left. split; [reflexivity|]. unfold orthogonal; cbn. lia.
Qed.
