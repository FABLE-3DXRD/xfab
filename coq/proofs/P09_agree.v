(* C09: the solvers agree where their tilts coincide: find_omega_general without chi and find_omega_wedge return the same set of
   omega for every wedge with cos wedge <> 0; at zero tilt so does find_omega_quart, and every omega of find_omega is among them. *)
From Coq Require Import Reals Psatz.
From XV Require Import RealLib Mat3 OmegaSolve Gen_laue P03_laue P09_laue P09_plain P09_quart P09_wedge.
Open Scope R_scope.

(* find_omega_wedge has the sign of the wedge reversed *)
Lemma general_wedge_mat w wedge : laue_form_omega_mat_general w 0 (- wedge) = wedge_mat wedge w.
Proof. rewrite laue_omega_general_comp, Rx_0, mmul_I_l. reflexivity. Qed.
Lemma wedge_zero w : wedge_mat 0 w = Rz w.
Proof. unfold wedge_mat. rewrite Ropp_0, Ry_0, mmul_I_l. reflexivity. Qed.

Lemma quart_zero_tilt w : laue_quart_to_omega (w * 180 / PI) 0 0 = Rz w.
Proof.
  rewrite laue_quart_comp, Rx_0, Ry_0, !mmul_I_l. replace (w * 180 / PI * PI / 180) with w by (field; pose proof PI_RGT_0; lra).
  rewrite mtrans_I. apply mmul_I_r.
Qed.

Section Agree.
Variables (g : V3) (tth : R).
Hypothesis Ht : 0 < tth < PI.
Hypothesis Hg : vx g * vx g + vy g * vy g <> 0.
Let gn := normalise_to tth g.

(* the omega in (-pi, pi] with the right x-component under Ry(-wedge) Rz(omega) *)
Definition good (wedge w : R) : Prop :=
  - PI < w <= PI /\ vx (mvmul (wedge_mat wedge w) gn) = - (sin (tth / 2) * sin (tth / 2)).

Lemma general_members wedge oms etas : cos wedge <> 0 ->
  laue_find_omega_general g tth 0 (- wedge) = Some (oms, etas) -> forall w, In w oms <-> good wedge w.
Proof.
  intros Hc E w. rewrite laue_general_refines in E. apply if_Some_inv in E. unfold good. rewrite <- general_wedge_mat.
  assert (Hab : gen_a gn (- wedge) * gen_a gn (- wedge) + gen_b gn (- wedge) * gen_b gn (- wedge) <> 0).
  { pose proof (normalise_xy tth g Ht Hg) as Hxy. fold gn in Hxy. unfold gen_a, gen_b. rewrite cos_neg.
    assert (0 < cos wedge * cos wedge) by nra. intro Z. apply Hxy. nra. }
  exact (proj1 (proj2 (solver_model_spec gn tth _ _ _ _ Ht (normalise_length tth g (xy_nz_xyz g Hg)) (general_sinusoid gn 0 (- wedge)) Hab oms etas E)) w).
Qed.

Theorem general_wedge_agreement wedge oms etas : cos wedge <> 0 ->
  laue_find_omega_general g tth 0 (- wedge) = Some (oms, etas) ->
  forall w, In w oms <-> In w (fst (laue_find_omega_wedge g tth wedge)).
Proof.
  intros Hc E w. rewrite (general_members wedge oms etas Hc E w). symmetry. apply laue_find_omega_wedge_members; assumption.
Qed.

Lemma quart_members oms etas : laue_find_omega_quart g tth 0 0 = Some (oms, etas) -> forall w, In w oms <-> good 0 w.
Proof.
  intros E w. rewrite laue_quart_refines in E. apply if_Some_inv in E. unfold good. rewrite wedge_zero, <- quart_zero_tilt.
  assert (Hab : quart_a gn 0 0 * quart_a gn 0 0 + quart_b gn 0 0 * quart_b gn 0 0 <> 0).
  { pose proof (normalise_xy tth g Ht Hg) as Hxy. fold gn in Hxy. unfold quart_a, quart_b, q_n1, q_n2. rewrite sin_0, cos_0. intro Z. apply Hxy. nra. }
  exact (proj1 (proj2 (solver_model_spec gn tth _ _ _ _ Ht (normalise_length tth g (xy_nz_xyz g Hg)) (quart_sinusoid gn 0 0) Hab oms etas E)) w).
Qed.

Theorem zero_tilt_agreement oms1 etas1 oms2 etas2 :
  laue_find_omega_general g tth 0 0 = Some (oms1, etas1) -> laue_find_omega_quart g tth 0 0 = Some (oms2, etas2) ->
  forall w, (In w oms1 <-> In w oms2) /\ (In w oms1 <-> In w (fst (laue_find_omega_wedge g tth 0))) /\ (In w (laue_find_omega g tth) -> In w oms1).
Proof.
  intros E1 E2 w. assert (C0 : cos 0 <> 0) by (rewrite cos_0; lra).
  replace (laue_find_omega_general g tth 0 0) with (laue_find_omega_general g tth 0 (- 0)) in E1 by (rewrite Ropp_0; reflexivity).
  split; [|split].
  - rewrite (general_members 0 oms1 etas1 C0 E1 w), (quart_members oms2 etas2 E2 w). tauto.
  - exact (general_wedge_agreement 0 oms1 etas1 C0 E1 w).
  - intros Hin. apply (general_members 0 oms1 etas1 C0 E1 w). destruct (laue_find_omega_sound g tth w Ht Hg Hin) as [Hx Hr].
    unfold good. rewrite wedge_zero, <- laue_omega_comp. split; assumption.
Qed.
End Agree.
