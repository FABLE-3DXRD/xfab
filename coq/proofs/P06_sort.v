(* C06: rows are ordered by non-decreasing sin(theta)/lambda - the sorting step of the model *)
From Coq Require Import ZArith List Lia Sorted Permutation.
From XV Require Import HklModel Traverse HklSort SGFacts.
Import ListNotations.
Open Scope Z_scope.

Definition qle (G : metricZ) (a b : hkl) : Prop := qform G a <= qform G b.

Lemma insq_perm G a l : Permutation (insq G a l) (a :: l).
Proof.
  induction l as [|b r IH]; cbn [insq]; [reflexivity|].
  destruct (qform G a <=? qform G b); [reflexivity|].
  rewrite IH. apply perm_swap.
Qed.

Lemma sortq_perm G l : Permutation (sortq G l) l.
Proof.
  induction l as [|a l IH]; cbn [sortq fold_right]; [reflexivity|].
  rewrite insq_perm. constructor. exact IH.
Qed.

Lemma insq_hd G x a l : qle G x a -> HdRel (qle G) x l -> HdRel (qle G) x (insq G a l).
Proof.
  intros Hxa H. destruct l as [|b r]; cbn [insq]; [constructor; exact Hxa|].
  destruct (qform G a <=? qform G b); constructor; [exact Hxa | inversion H; assumption].
Qed.

Lemma insq_sorted G a l : Sorted (qle G) l -> Sorted (qle G) (insq G a l).
Proof.
  induction 1 as [|b r Sr IH Hb]; cbn [insq]; [repeat constructor|].
  destruct (qform G a <=? qform G b) eqn:E.
  - constructor; [constructor; assumption | constructor; unfold qle; lia].
  - constructor; [exact IH | apply insq_hd; [unfold qle; lia | exact Hb]].
Qed.

Lemma sortq_sorted G l : Sorted (qle G) (sortq G l).
Proof.
  induction l as [|a l IH]; cbn [sortq fold_right]; [constructor|].
  apply insq_sorted. exact IH.
Qed.

(* with a transitive order Sorted is StronglySorted: every earlier row has a key <= every later row *)
Lemma sortq_strongly G l : StronglySorted (qle G) (sortq G l).
Proof.
  apply Sorted_StronglySorted; [|apply sortq_sorted]. intros x y z; unfold qle; lia.
Qed.

Lemma sortq_in G l h : In h (sortq G l) <-> In h l.
Proof. split; apply Permutation_in; [apply sortq_perm | symmetry; apply sortq_perm]. Qed.
Lemma sortq_nodup G l : NoDup l -> NoDup (sortq G l).
Proof. intros N. eapply Permutation_NoDup; [symmetry; apply sortq_perm | exact N]. Qed.
Lemma sortq_length G l : length (sortq G l) = length l.
Proof. apply Permutation_length, sortq_perm. Qed.

(* key sequences: the implementation's rows carry the same keys in the same order as the model's sorted rows -> they are sorted by key *)
Lemma map_sorted G l : Sorted (qle G) l -> Sorted Z.le (map (qform G) l).
Proof.
  induction 1 as [|a r Sr IH Hd]; cbn [map]; constructor; [exact IH|].
  destruct Hd; cbn [map]; constructor. assumption.
Qed.
Lemma keyseq_sorted G m e : keyseq_ok G m e = true -> Sorted Z.le (map (qform G) e).
Proof.
  unfold keyseq_ok. destruct m as [l|]; [|discriminate]. intros H. apply list_eqb_Z_eq in H. rewrite <- H. apply map_sorted, sortq_sorted.
Qed.
Lemma keyseq_length G l e : keyseq_ok G (Some l) e = true -> length e = length l.
Proof.
  unfold keyseq_ok. intros H. apply list_eqb_Z_eq in H. apply (f_equal (@length Z)) in H. rewrite !map_length, sortq_length in H. symmetry. exact H.
Qed.
