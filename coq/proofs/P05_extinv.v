(* C05: operator extinction is constant on Laue orbits, for every operation list the C04 check accepts and all of Z^3, because
   the operations form a group modulo lattice translations (P04_group.v): if (S, t) extinguishes h R, its conjugate by an
   operation (R, u) extinguishes h.  The statement on the box [-7,7]^3 (ext_inv_all, C05_extinction_constant_on_orbits_box) is a corollary. *)
From Coq Require Import ZArith List Bool Lia.
From XV Require Import SGroup HklModel Tab_segm Tab_sg_all P04 SGFacts P04_group P05 P06_fd_main.
Import ListNotations.
Open Scope Z_scope.

Definition kills (h : hkl) (o : op) : Prop := vmZ h (fst o) = h /\ dot3z h (snd o) mod 12 <> 0.

Lemma extinct_spec ops h : extinct ops h = true <-> exists o, In o ops /\ kills h o.
Proof.
  unfold extinct. rewrite existsb_exists. split; intros (o & Ho & K); exists o; (split; [exact Ho|]); destruct o as [S t]; unfold kills in *; cbn [fst snd] in *.
  - apply andb_prop in K. destruct K as [K1 K2]. apply hkl_eqb_spec in K1. apply negb_true_iff, Z.eqb_neq in K2. auto.
  - destruct K as [K1 K2]. apply andb_true_intro. split; [apply hkl_eqb_spec; exact K1 | apply negb_true_iff, Z.eqb_neq; exact K2].
Qed.

(* the phase h.t of a product, modulo the lattice *)
Lemma phase_mul h p q : dot3z h (snd (op_mul p q)) mod 12 = (dot3z (vmZ h (fst p)) (snd q) + dot3z h (snd p)) mod 12.
Proof. rewrite op_mul_snd, dot3z_mod12v, dot3z_vadd3, dot3z_mvZ. reflexivity. Qed.

(* conjugation: p o p^-1 extinguishes h when o extinguishes h R, R the rotation of p *)
Lemma kills_conj p q o h : op_mul p q = op_id -> kills (vmZ h (fst p)) o -> kills h (op_mul (op_mul p o) q).
Proof.
  intros E [K1 K2].
  assert (ER : mmulZ (fst p) (fst q) = mI9) by (rewrite <- op_mul_fst, E; reflexivity).
  split.
  - rewrite !op_mul_fst, <- !vmZ_mmulZ, K1, vmZ_mmulZ, ER. apply vmZ_I.
  - set (A := dot3z (vmZ h (fst p)) (snd o)) in *. set (B := dot3z (vmZ h (fst p)) (snd q)). set (C := dot3z h (snd p)).
    (* the phase of (p o) q is A + B + C, and B + C, that of p q = 1, vanishes *)
    assert (E0 : (B + C) mod 12 = 0).
    { unfold B, C. rewrite <- phase_mul, E. destruct h as [[x y] z]. unfold dot3z, op_id. cbn [snd]. rewrite !Z.mul_0_r. reflexivity. }
    rewrite phase_mul, op_mul_fst, <- vmZ_mmulZ, K1. fold B.
    rewrite <- Z.add_mod_idemp_r, phase_mul, Z.add_mod_idemp_r by lia. fold A C. replace (B + (A + C)) with (A + (B + C)) by ring.
    rewrite <- Z.add_mod_idemp_r, E0, Z.add_0_r by lia. exact K2.
Qed.

Section Group.
Variables (s : sgrec) (ops : list op).
Hypothesis Hwf : Forall wf_op ops.
Hypothesis Hok : group_ok_ops s ops = true.

Lemma extinct_rot_imp p h : In p ops -> extinct ops (vmZ h (fst p)) = true -> extinct ops h = true.
Proof.
  intros Hp H. apply extinct_spec in H. destruct H as (o & Ho & K). destruct (member_inverse s ops Hwf Hok p Hp) as (q & Hq & E).
  apply extinct_spec. exists (op_mul (op_mul p o) q). split; [|exact (kills_conj p q o h E K)].
  apply (member_closed s ops Hwf Hok); [apply (member_closed s ops Hwf Hok); assumption | exact Hq].
Qed.

Theorem extinct_rot p h : In p ops -> extinct ops (vmZ h (fst p)) = extinct ops h.
Proof.
  intros Hp. apply eq_true_iff_eq. split; [apply extinct_rot_imp; exact Hp|].
  intros H. destruct (member_inverse s ops Hwf Hok p Hp) as (q & Hq & E). apply (extinct_rot_imp q); [exact Hq|].
  assert (ER : mmulZ (fst p) (fst q) = mI9) by (rewrite <- op_mul_fst, E; reflexivity).
  rewrite vmZ_mmulZ, ER, vmZ_I. exact H.
Qed.
End Group.

Lemma kills_hneg h o : kills h o -> kills (hneg h) o.
Proof.
  intros [K1 K2]. split; [rewrite vmZ_hneg, K1; reflexivity|]. rewrite dot3z_hneg. intros Z0. apply K2.
  apply Z.mod_opp_l_z in Z0; [|lia]. rewrite Z.opp_involutive in Z0. exact Z0.
Qed.
Theorem extinct_hneg ops h : extinct ops (hneg h) = extinct ops h.
Proof.
  apply eq_true_iff_eq. rewrite !extinct_spec. split; intros (o & Ho & K); exists o; (split; [exact Ho|]).
  - rewrite <- (hneg_invol h). apply kills_hneg. exact K.
  - apply kills_hneg. exact K.
Qed.

(* the Laue group of a setting: its first nuniq rotations and their negatives *)
Theorem extinct_laue s ops rots : ops_of (sg_rot s) (sg_trans s) = Some ops -> group_ok_ops s ops = true ->
  all_mats (firstn (Z.to_nat (sg_nuniq s)) (sg_rot s)) = Some rots ->
  forall R h, In R (rots ++ map mnegZ rots) -> extinct ops (vmZ h R) = extinct ops h.
Proof.
  intros Ho Hok Hr R h HR. rewrite (ops_of_all_mats _ _ _ Ho) in Hr. injection Hr as <-.
  assert (Rot : forall R0, In R0 (firstn (Z.to_nat (sg_nuniq s)) (map fst ops)) -> extinct ops (vmZ h R0) = extinct ops h).
  { intros R0 H0. apply firstn_In, in_map_iff in H0. destruct H0 as (p & <- & Hp).
    apply (extinct_rot s ops (ops_of_wf _ _ _ Ho) Hok p h Hp). }
  apply in_app_or in HR. destruct HR as [HR|HR]; [exact (Rot R HR)|].
  apply in_map_iff in HR. destruct HR as (R0 & <- & H0). rewrite vmZ_mnegZ, extinct_hneg. exact (Rot R0 H0).
Qed.

Definition ext_inv_ok (H : Z) (s : sgrec) : bool :=
  match ops_of (sg_rot s) (sg_trans s), laue_mats s, lookup_segm segm_laue (sg_laue s) (sg_choice s) with
  | Some ops, Some L, Some segs =>
      forallb (fun h => if existsb (fun seg => in_region seg h) segs
                        then forallb (fun R => Bool.eqb (extinct ops (vmZ h R)) (extinct ops h)) L else true) (box H)
  | _, _, _ => false
  end.
(* in particular on the box *)
Time Lemma ext_inv_all : forallb (ext_inv_ok 7) all_settings = true.
Proof.
  apply forallb_forall. intros s Hs. unfold ext_inv_ok.
  destruct (setting_ops s Hs) as (ops & Ho & Hok). rewrite Ho.
  destruct (setting_segs s Hs) as (segs & -> & _).
  pose proof (ops_of_all_mats _ _ _ Ho (Z.to_nat (sg_nuniq s))) as Hr. unfold laue_mats. rewrite Hr.
  apply forallb_forall. intros h _. destruct (existsb _ segs); [|reflexivity].
  apply forallb_forall. intros R HR. apply eqb_true_iff. exact (extinct_laue s ops _ Ho Hok Hr R h HR).
Qed.
