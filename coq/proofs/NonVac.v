(* valid_cell is satisfiable (the other non-vacuity examples stand next to their theorems) *)
From Coq Require Import Reals Lra.
From Interval Require Import Tactic.
From XV Require Import Mat3 Cell.
Open Scope R_scope.

Lemma valid_cell_examples : valid_cell (mkV6 3 4 5 80 95 100) /\ valid_cell (mkV6 5 6 7 50 60 70).
Proof.
  unfold valid_cell, gram, rad; cbn [c0 c1 c2 c3 c4 c5].
  repeat split; try lra; interval.
Qed.
