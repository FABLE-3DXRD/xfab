(* C01 for xfab.laue: lemmas about the GENERATED definitions (Gen_laue) against spec/Cell.
   Everything is organised around two matrices of a valid cell c: metric c and its inverse.  A'A = metric c,
   B'B = minv (metric c) = metric (cell_invert c); the volume, sintl and the round trips are corollaries. *)
From Coq Require Import Reals Psatz.
From XV Require Import RealLib Mat3 Cell Gen_laue.
Open Scope R_scope.

Lemma mdet_metric c : mdet (metric c) = (c0 c * c1 c * c2 c) * (c0 c * c1 c * c2 c) * gram c.
Proof. unfold metric, gram, mdet; cbn [m00 m01 m02 m10 m11 m12 m20 m21 m22]. ring. Qed.

Lemma gram_pos_of_det c : 0 < c0 c -> 0 < c1 c -> 0 < c2 c -> 0 < mdet (metric c) -> 0 < gram c.
Proof.
  intros Ha Hb Hc. rewrite mdet_metric. intros D.
  apply (Rmult_lt_reg_l (c0 c * c1 c * c2 c * (c0 c * c1 c * c2 c))); [pos | lra].
Qed.

Lemma metric_det_pos c : valid_cell c -> 0 < mdet (metric c).
Proof. intros (Ha & Hb & Hc & _ & _ & _ & Hg). rewrite mdet_metric. pos. Qed.

Lemma cos_inj_deg x y : 0 < x < 180 -> 0 < y < 180 -> cos (rad x) = cos (rad y) -> x = y.
Proof.
  intros Hx Hy E. destruct (deg_range x Hx), (deg_range y Hy). unfold rad in E. apply cos_inj in E; [|lra ..].
  apply (Rmult_eq_reg_r (PI / 180)); [lra | apply Rgt_not_eq; lra].
Qed.

Lemma metric_inj c d : valid_cell c -> valid_cell d -> metric c = metric d -> c = d.
Proof.
  intros Hc Hd E. destruct c as [a b cc al be ga], d as [a' b' cc' al' be' ga'].
  unfold valid_cell, metric in *. cbn [c0 c1 c2 c3 c4 c5] in *.
  destruct Hc as (A1 & A2 & A3 & A4 & A5 & A6 & _), Hd as (B1 & B2 & B3 & B4 & B5 & B6 & _).
  injection E as E00 E01 E02 _ E11 E12 _ _ E22.
  assert (a = a') by (apply sq_pos_inj; assumption). assert (b = b') by (apply sq_pos_inj; assumption).
  assert (cc = cc') by (apply sq_pos_inj; assumption). subst a' b' cc'.
  assert (cos (rad ga) = cos (rad ga')) by (apply (Rmult_eq_reg_l (a * b)); [lra | apply Rgt_not_eq; pos]).
  assert (cos (rad be) = cos (rad be')) by (apply (Rmult_eq_reg_l (a * cc)); [lra | apply Rgt_not_eq; pos]).
  assert (cos (rad al) = cos (rad al')) by (apply (Rmult_eq_reg_l (b * cc)); [lra | apply Rgt_not_eq; pos]).
  f_equal; apply cos_inj_deg; assumption.
Qed.

Lemma valid_cell_pos c : valid_cell c ->
  (0 < c0 c /\ 0 < c1 c /\ 0 < c2 c) /\
  (0 < sin (rad (c3 c)) /\ 0 < sin (rad (c4 c)) /\ 0 < sin (rad (c5 c))) /\
  0 < sqrt (gram c) /\ sqrt (gram c) * sqrt (gram c) = gram c.
Proof.
  intros (Ha & Hb & Hc & Hal & Hbe & Hga & Hg).
  repeat split; try assumption; try (apply sin_deg_pos; assumption).
  - apply sqrt_lt_R0; exact Hg.
  - apply sqrt_sqrt; left; exact Hg.
Qed.

(* The goal about generated code of a valid cell c becomes a statement about reals: lengths a b cc, a cosine c_i and a sine s_i
   for each angle tied by s s + c c = 1, and w with Hw : 0 < w, Hww : w w = gram; field_nsatz decides the equations. *)
Ltac cell_algebra c H :=
  destruct (valid_cell_pos c H) as ((Ha & Hb & Hc) & (Hsal & Hsbe & Hsga) & Hw & Hww); clear H;
  let a := fresh "a" in let b := fresh "b" in let cc := fresh "cc" in
  let al := fresh "al" in let be := fresh "be" in let ga := fresh "ga" in
  destruct c as [a b cc al be ga];
  unfold laue_form_a_mat, laue_form_b_mat, laue_cell_volume, laue_cell_invert, metric, gram, rad in *;
  cbv zeta; cbn [c0 c1 c2 c3 c4 c5 m00 m01 m02 m10 m11 m12 m20 m21 m22] in *;
  match type of Hw with 0 < sqrt ?g => let w := fresh "w" in set (w := sqrt g) in *; clearbody w end;
  repeat match goal with
         | |- context [cos ?t] => trig_abstract_one t
         | |- context [sin ?t] => trig_abstract_one t
         end.

Lemma laue_volume_eq c : valid_cell c ->
  laue_cell_volume c = c0 c * c1 c * c2 c * sqrt (gram c).
Proof. intros H. unfold laue_cell_volume, gram, rad. reflexivity. Qed.

Lemma laue_volume_pos c : valid_cell c -> 0 < laue_cell_volume c.
Proof.
  intros H. rewrite laue_volume_eq by exact H. destruct (valid_cell_pos c H) as ((Ha & Hb & Hc) & _ & Hw & _). pos.
Qed.

Lemma laue_volume_sq c : valid_cell c -> laue_cell_volume c * laue_cell_volume c = mdet (metric c).
Proof.
  intros H. rewrite mdet_metric, laue_volume_eq by exact H.
  rewrite <- (sqrt_sqrt (gram c)) at 3 by (left; apply H). ring.
Qed.

Lemma laue_A_upper_posdiag c : valid_cell c -> upper_posdiag (laue_form_a_mat c).
Proof.
  intros H. cell_algebra c H. apply upper_posdiag_mk; pos.
Qed.

Lemma laue_A_det_pos c : valid_cell c -> 0 < mdet (laue_form_a_mat c).
Proof. intros H. apply upper_posdiag_det. apply laue_A_upper_posdiag; exact H. Qed.

Lemma laue_A_metric c : valid_cell c -> mmul (mtrans (laue_form_a_mat c)) (laue_form_a_mat c) = metric c.
Proof.
  intros H. cell_algebra c H. munfold.
  f_equal; field_nsatz.
Qed.

Lemma laue_A_unique c A : valid_cell c -> upper_posdiag A -> mmul (mtrans A) A = metric c -> laue_form_a_mat c = A.
Proof.
  intros Hc HA E. apply chol_unique; [apply laue_A_upper_posdiag; exact Hc | exact HA |].
  rewrite laue_A_metric by exact Hc. symmetry; exact E.
Qed.

Lemma laue_detA_volume c : valid_cell c -> mdet (laue_form_a_mat c) = laue_cell_volume c.
Proof.
  (* both are positive and have the same square: det (A'A) = det (metric c) *)
  intros H. apply sq_pos_inj; [apply laue_A_det_pos, H | apply laue_volume_pos, H |].
  rewrite laue_volume_sq, <- laue_A_metric, mdet_mmul, mdet_mtrans by exact H. reflexivity.
Qed.

Lemma laue_form_a_mat_inv_def c : laue_form_a_mat_inv c = minv (laue_form_a_mat c).
Proof. reflexivity. Qed.

Lemma laue_a_mat_inv c : valid_cell c ->
  mmul (laue_form_a_mat_inv c) (laue_form_a_mat c) = mI /\ mmul (laue_form_a_mat c) (laue_form_a_mat_inv c) = mI.
Proof.
  intros H. rewrite laue_form_a_mat_inv_def.
  split; [apply minv_l | apply minv_r]; apply Rgt_not_eq, laue_A_det_pos, H.
Qed.

Lemma laue_a_inv_posdiag c : valid_cell c -> upper_posdiag (laue_form_a_mat_inv c).
Proof. intros H. rewrite laue_form_a_mat_inv_def. apply upper_posdiag_minv, laue_A_upper_posdiag, H. Qed.

Lemma laue_B_upper_posdiag c : valid_cell c -> upper_posdiag (laue_form_b_mat c).
Proof.
  intros H. cell_algebra c H. apply upper_posdiag_mk; pos.
Qed.

Lemma laue_B_det_pos c : valid_cell c -> 0 < mdet (laue_form_b_mat c).
Proof. intros H. apply upper_posdiag_det. apply laue_B_upper_posdiag; exact H. Qed.

Lemma laue_BtB_inv c : valid_cell c ->
  mmul (mtrans (laue_form_b_mat c)) (laue_form_b_mat c) = minv (metric c).
Proof.
  intros H. unfold minv. rewrite mdet_metric.
  cell_algebra c H. rewrite <- Hww. munfold.
  f_equal; field_nsatz.
Qed.

Lemma laue_B_recip_metric c : valid_cell c ->
  mmul (mmul (mtrans (laue_form_b_mat c)) (laue_form_b_mat c)) (metric c) = mI.
Proof.
  intros H. rewrite laue_BtB_inv by exact H. apply minv_l, Rgt_not_eq, metric_det_pos, H.
Qed.

Lemma laue_B_unique c B : valid_cell c -> upper_posdiag B ->
  mmul (mmul (mtrans B) B) (metric c) = mI -> laue_form_b_mat c = B.
Proof.
  intros Hc HB E. apply chol_unique; [apply laue_B_upper_posdiag; exact Hc | exact HB |].
  rewrite laue_BtB_inv by exact Hc. symmetry. apply minv_unique_l. exact E.
Qed.

Lemma sqrt_scale_sq w N Q : 0 < w -> 0 <= N -> Q = w * w * N -> sqrt Q / (2 * w) = sqrt N / 2.
Proof.
  intros Hw HN ->. rewrite sqrt_mult by nra. rewrite sqrt_square by lra. field. lra.
Qed.

(* the code's sintl is sqrt (h' G^-1 h) / 2 with G^-1 written out over the common denominator gram *)
Lemma laue_sintl_norm c h : valid_cell c ->
  laue_sintl c h = vnorm (mvmul (laue_form_b_mat c) h) / 2.
Proof.
  intros H. pose proof H as (Ha & Hb & Hc & _ & _ & _ & Hg).
  unfold laue_sintl, vnorm; cbv zeta.
  match goal with |- _ / (2 * sqrt ?g) = _ => replace g with (gram c) by (unfold gram, rad; ring) end.
  apply sqrt_scale_sq; [apply sqrt_lt_R0; exact Hg | apply vnorm2_nonneg |].
  rewrite vnorm2_mvmul, laue_BtB_inv, sqrt_sqrt by (first [exact H | left; exact Hg]).
  unfold minv. rewrite mdet_metric. unfold gram, metric, rad in *. mcbv.
  field. nz.
Qed.

Lemma acos_deg x : -1 < x < 1 ->
  0 < acos x * 180 / PI < 180 /\ cos (acos x * 180 / PI * PI / 180) = x.
Proof.
  intros Hx. pose proof (acos_bound_lt x Hx) as [B0 B1].
  replace (acos x * 180 / PI * PI / 180) with (acos x) by (field; lra).
  split; [|apply cos_acos; lra]. split.
  - apply Rdiv_lt_0_compat; lra.
  - apply (Rmult_lt_reg_r PI); [lra|]. unfold Rdiv. rewrite Rmult_assoc, Rinv_l, Rmult_1_r by lra. lra.
Qed.

(* |x| < 1 from 1 - x^2 = g / d^2 with g, d > 0 *)
Lemma ratio_lt_1 n s t g : 0 < s -> 0 < t -> 0 < g -> s * s * (t * t) - n * n = g ->
  -1 < n / (s * t) < 1.
Proof.
  intros Hs Ht Hg E. assert (Hst : 0 < s * t) by nra. apply Rabs_lt_1_sq.
  replace (n / (s * t) * (n / (s * t))) with (1 - g / (s * t * (s * t))) by (subst g; field; lra).
  assert (0 < g / (s * t * (s * t))) by (apply Rdiv_lt_0_compat; nra). lra.
Qed.

(* the angle (in degrees) between two non-parallel vectors of squared lengths p, q and scalar product n *)
Lemma angle_of_dot n p q : 0 < p -> 0 < q -> 0 < p * q - n * n ->
  let x := acos (n / sqrt p / sqrt q) * 180 / PI in 0 < x < 180 /\ sqrt p * sqrt q * cos (rad x) = n.
Proof.
  intros Hp Hq Hg x. pose proof (sqrt_lt_R0 _ Hp) as Sp. pose proof (sqrt_lt_R0 _ Hq) as Sq.
  destruct (acos_deg (n / sqrt p / sqrt q)) as [Rx Cx].
  { replace (n / sqrt p / sqrt q) with (n / (sqrt p * sqrt q)) by (field; split; lra).
    apply ratio_lt_1 with (g := p * q - n * n); try assumption. rewrite !sqrt_sqrt by lra. reflexivity. }
  split; [exact Rx|]. unfold rad, x. rewrite Cx. field. split; lra.
Qed.

Lemma laue_a_to_cell_valid A : mdet A <> 0 ->
  valid_cell (laue_a_to_cell A) /\ metric (laue_a_to_cell A) = mmul (mtrans A) A.
Proof.
  (* the columns u, v, w of A have triple product det A: none vanishes and no two are parallel, so the three lengths are
     positive and the three angles are those of angle_of_dot *)
  intros D. set (u := mrow0 (mtrans A)). set (v := mrow1 (mtrans A)). set (w := mrow2 (mtrans A)).
  destruct (triple_nz u v w) as (Pu & Pv & Luv); [replace (vdot _ w) with (mdet A) by (unfold u, v, w; munfold; ring); exact D|].
  destruct (triple_nz v w u) as (_ & Pw & Lvw); [replace (vdot _ u) with (mdet A) by (unfold u, v, w; munfold; ring); exact D|].
  destruct (triple_nz u w v) as (_ & _ & Luw); [replace (vdot _ v) with (- mdet A) by (unfold u, v, w; munfold; ring); lra|].
  destruct (angle_of_dot _ _ _ Pv Pw Lvw) as [Rvw Cvw]. destruct (angle_of_dot _ _ _ Pu Pw Luw) as [Ruw Cuw].
  destruct (angle_of_dot _ _ _ Pu Pv Luv) as [Ruv Cuv].
  assert (M : metric (laue_a_to_cell A) = mmul (mtrans A) A).
  { unfold metric; cbv zeta.
    apply M3_ext; first [apply sqrt_sqrt, Rlt_le; assumption | exact Cuv | exact Cuw | exact Cvw | idtac].
    - transitivity (vdot u v); [exact Cuv | unfold u, v; munfold; ring].
    - transitivity (vdot u w); [exact Cuw | unfold u, w; munfold; ring].
    - transitivity (vdot v w); [exact Cvw | unfold v, w; munfold; ring]. }
  split; [|exact M].
  repeat split; try (apply sqrt_lt_R0; assumption); try apply Rvw; try apply Ruw; try apply Ruv.
  apply gram_pos_of_det; try (apply sqrt_lt_R0; assumption).
  rewrite M, mdet_mmul, mdet_mtrans. nra.
Qed.

Lemma laue_a_to_cell_of_metric A c : valid_cell c ->
  mmul (mtrans A) A = metric c -> laue_a_to_cell A = c.
Proof.
  intros H E. assert (D : mdet A <> 0).
  { intro Z. pose proof (metric_det_pos c H) as P. rewrite <- E, mdet_mmul, Z in P. lra. }
  destruct (laue_a_to_cell_valid A D) as [V M].
  apply metric_inj; [exact V | exact H | rewrite M; exact E].
Qed.

Lemma laue_a_to_cell_inv c : valid_cell c -> laue_a_to_cell (laue_form_a_mat c) = c.
Proof. intros H. apply laue_a_to_cell_of_metric; [exact H | apply laue_A_metric; exact H]. Qed.

Section Recip.
Variable c : V6.
Hypothesis H : valid_cell c.

Let a := c0 c. Let b := c1 c. Let cc := c2 c.
Let ca := cos (rad (c3 c)). Let cb := cos (rad (c4 c)). Let cg := cos (rad (c5 c)).
Let sa := sin (rad (c3 c)). Let sb := sin (rad (c4 c)). Let sg := sin (rad (c5 c)).

Lemma recip_facts :
  let r := laue_cell_invert c in
  let V := laue_cell_volume c in
  c0 r = b * cc * sa / V /\ c1 r = a * cc * sb / V /\ c2 r = a * b * sg / V /\
  (0 < c3 r < 180 /\ cos (rad (c3 r)) = (cb * cg - ca) / (sb * sg)) /\
  (0 < c4 r < 180 /\ cos (rad (c4 r)) = (ca * cg - cb) / (sa * sg)) /\
  (0 < c5 r < 180 /\ cos (rad (c5 r)) = (ca * cb - cg) / (sa * sb)).
Proof.
  subst a b cc ca cb cg sa sb sg. destruct (valid_cell_pos c H) as (_ & (Hsal & Hsbe & Hsga) & _).
  destruct H as (_ & _ & _ & _ & _ & _ & Hg). unfold rad in *. unfold laue_cell_invert; cbv zeta; cbn [c0 c1 c2 c3 c4 c5].
  pose proof (sc1 (c3 c * PI / 180)) as T1. pose proof (sc1 (c4 c * PI / 180)) as T2.
  pose proof (sc1 (c5 c * PI / 180)) as T3.
  split; [reflexivity|]. split; [reflexivity|]. split; [reflexivity|].
  split; [|split]; (apply acos_deg, ratio_lt_1 with (g := gram c); [assumption .. | unfold gram, rad; nsatz_R]).
Qed.
End Recip.

Lemma laue_cell_invert_minv c : valid_cell c -> metric (laue_cell_invert c) = minv (metric c).
Proof.
  intros H. pose proof (recip_facts c H) as F. cbv zeta in F.
  destruct F as (F0 & F1 & F2 & (_ & C3) & (_ & C4) & (_ & C5)).
  unfold metric at 1. rewrite F0, F1, F2, C3, C4, C5. clear F0 F1 F2 C3 C4 C5.
  unfold minv. rewrite mdet_metric.
  cell_algebra c H. rewrite <- Hww. munfold.
  f_equal; field_nsatz.
Qed.

Lemma laue_cell_invert_valid c : valid_cell c -> valid_cell (laue_cell_invert c).
Proof.
  intros H. pose proof (recip_facts c H) as F. cbv zeta in F.
  destruct F as (F0 & F1 & F2 & (R3 & _) & (R4 & _) & (R5 & _)).
  pose proof (laue_volume_pos c H) as VP. pose proof (metric_det_pos c H) as DP.
  destruct (valid_cell_pos c H) as ((Ha & Hb & Hc) & (Hsal & Hsbe & Hsga) & _).
  assert (P0 : 0 < c0 (laue_cell_invert c)) by (rewrite F0; pos).
  assert (P1 : 0 < c1 (laue_cell_invert c)) by (rewrite F1; pos).
  assert (P2 : 0 < c2 (laue_cell_invert c)) by (rewrite F2; pos).
  repeat split; try assumption; try apply R3; try apply R4; try apply R5.
  apply gram_pos_of_det; try assumption.
  rewrite laue_cell_invert_minv, mdet_minv by (first [exact H | lra]). apply Rinv_0_lt_compat; exact DP.
Qed.

Lemma laue_cell_invert_metric c : valid_cell c ->
  mmul (metric (laue_cell_invert c)) (metric c) = mI.
Proof.
  intros H. rewrite laue_cell_invert_minv by exact H. apply minv_l, Rgt_not_eq, metric_det_pos, H.
Qed.

Lemma laue_cell_invert_involutive c : valid_cell c -> laue_cell_invert (laue_cell_invert c) = c.
Proof.
  intros H. pose proof (laue_cell_invert_valid c H) as H1. pose proof (metric_det_pos c H) as DP.
  apply metric_inj; [apply laue_cell_invert_valid; exact H1 | exact H |].
  rewrite !laue_cell_invert_minv by assumption. apply minv_invol. lra.
Qed.

Lemma laue_b_to_cell_inv c : valid_cell c -> laue_b_to_cell (laue_form_b_mat c) = c.
Proof.
  intros H. change (laue_cell_invert (laue_a_to_cell (laue_form_b_mat c)) = c).
  rewrite (laue_a_to_cell_of_metric _ (laue_cell_invert c)).
  - apply laue_cell_invert_involutive; exact H.
  - apply laue_cell_invert_valid; exact H.
  - rewrite laue_BtB_inv, laue_cell_invert_minv by exact H. reflexivity.
Qed.
