(* C07: an operation list that passes the executable check SGLeft.left_ok is, embedded into the reals, closed under left composition
   by each of its members modulo lattice translations: the hypothesis [left_closed] of P07 *)
From Coq Require Import Reals Permutation Lia.
From XV Require Import RealLib Mat3 Cplx SGroup SGLeft SGFacts P07.
Import ListNotations.

Open Scope R_scope.
Definition matR (A : mat) : M3 :=
  let '(a, b, c, d, e, f, g, h, i) := A in mkM3 (IZR a) (IZR b) (IZR c) (IZR d) (IZR e) (IZR f) (IZR g) (IZR h) (IZR i).
Definition vecR12 (v : Z * Z * Z) : V3 := let '(x, y, z) := v in mkV3 (IZR x / 12) (IZR y / 12) (IZR z / 12).
Definition opR (p : op) : sop := (matR (fst p), vecR12 (snd p)).

Lemma matR_mmul A B : matR (mmulZ A B) = mmul (matR A) (matR B).
Proof.
  destruct A as [[[[[[[[a b] c] d] e] f] g] h] i], B as [[[[[[[[a' b'] c'] d'] e'] f'] g'] h'] i'].
  unfold matR, mmulZ, mmul; cbn. rewrite !plus_IZR, !mult_IZR. reflexivity.
Qed.
Lemma matR_mtrans A : matR (mtransZ A) = mtrans (matR A).
Proof. destruct A as [[[[[[[[a b] c] d] e] f] g] h] i]. reflexivity. Qed.
Lemma matR_mdet A : mdet (matR A) = IZR (mdetZ A).
Proof.
  destruct A as [[[[[[[[a b] c] d] e] f] g] h] i]. unfold matR, mdetZ, mdet; cbn.
  rewrite !plus_IZR, !minus_IZR, !mult_IZR, !minus_IZR, !mult_IZR. ring.
Qed.

Lemma vecR12_affine A t u : vecR12 (vadd3 (mvZ A t) u) = vadd (mvmul (matR A) (vecR12 t)) (vecR12 u).
Proof.
  destruct A as [[[[[[[[a b] c] d] e] f] g] h] i], t as [[x y] z], u as [[x' y'] z'].
  unfold vecR12, vadd3, mvZ, matR, vadd, mvmul; cbn. rewrite !plus_IZR, !mult_IZR. f_equal; field.
Qed.

(* reducing the twelfths modulo 12 changes a translation by a lattice vector *)
Lemma mod12_split (x : Z) : IZR x / 12 = IZR (x mod 12) / 12 + IZR (x / 12).
Proof.
  pose proof (Z.div_mod x 12 ltac:(lia)) as E. rewrite E at 1. rewrite plus_IZR, mult_IZR. field.
Qed.
Lemma vecR12_mod12v v : exists L, int_vec L /\ vecR12 v = vadd (vecR12 (mod12v v)) L.
Proof.
  destruct v as [[x y] z]. exists (mkV3 (IZR (x / 12)) (IZR (y / 12)) (IZR (z / 12))). split; [eexists _, _, _; reflexivity|].
  unfold vecR12, mod12v, vadd; cbn. rewrite <- !mod12_split. reflexivity.
Qed.

Lemma op_mul_R k p :
  mmul (fst (opR k)) (fst (opR p)) = fst (opR (op_mul k p)) /\
  exists L, int_vec L /\ vadd (mvmul (fst (opR k)) (snd (opR p))) (snd (opR k)) = vadd (snd (opR (op_mul k p))) L.
Proof.
  unfold opR; cbn [fst snd]. rewrite op_mul_fst, op_mul_snd, matR_mmul, <- vecR12_affine. split; [reflexivity | apply vecR12_mod12v].
Qed.

Theorem left_ok_closed ops k : left_ok_ops ops = true -> In k ops -> left_closed (opR k) (map opR ops).
Proof.
  intros H Hk. exists (map opR (map (op_mul k) ops)). split.
  - apply Permutation_map. apply left_ok_perm; assumption.
  - clear H Hk. induction ops as [|p r IH]; cbn [map]; constructor; [|exact IH].
    apply op_mul_R.
Qed.
