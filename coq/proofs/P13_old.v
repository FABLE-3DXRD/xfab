(* C13: the _old strain pair (via A matrices) *)
From Coq Require Import Reals Psatz.
From XV Require Import Mat3 Cell Gen_laue P01_laue P13_laue P13_ubi.
Open Scope R_scope.

(* the upper triangular matrix A with sym(A Ai) - I = eps, as epsilon_to_b_old builds it (Ai = form_a_mat_inv c) *)
Definition Amat (Ai : M3) (eps : V6) : M3 :=
  let a00 := (c0 eps + 1) / m00 Ai in
  let a11 := (c3 eps + 1) / m11 Ai in
  let a01 := (2 * c1 eps - a00 * m01 Ai) / m11 Ai in
  mkM3 a00 a01 ((2 * c2 eps - a00 * m02 Ai - a01 * m12 Ai) / m22 Ai)
       0 a11 ((2 * c4 eps - a11 * m12 Ai) / m22 Ai)
       0 0 ((c5 eps + 1) / m22 Ai).

Lemma laue_epsilon_to_b_old_def eps c :
  laue_epsilon_to_b_old eps c = laue_form_b_mat (laue_a_to_cell (Amat (laue_form_a_mat_inv c) eps)).
Proof. reflexivity. Qed.

Lemma laue_b_to_epsilon_old_def B c :
  laue_b_to_epsilon_old B c = sym_minus_I (mmul (laue_form_a_mat (laue_b_to_cell B)) (laue_form_a_mat_inv c)).
Proof. exact (sym_minus_I_code (mmul (laue_form_a_mat (laue_b_to_cell B)) (laue_form_a_mat_inv c))). Qed.

Lemma Amat_posdiag Ai eps : upper_posdiag Ai -> strain_small eps -> upper_posdiag (Amat Ai eps).
Proof.
  intros [_ (P0 & P1 & P2)] (S0 & S1 & S2). apply upper_posdiag_mk; apply Rdiv_lt_0_compat; lra.
Qed.

Lemma sym_Amat Ai eps : upper_posdiag Ai -> sym_minus_I (mmul (Amat Ai eps) Ai) = eps.
Proof.
  intros [[U1 [U2 U3]] [P0 [P1 P2]]].
  destruct Ai as [a b c d e f g h i], eps as [e11 e12 e13 e22 e23 e33]. cbn in *. subst.
  unfold Amat, sym_minus_I, mmul; cbn. f_equal; field; repeat split; lra.
Qed.

Lemma laue_eps_roundtrip_old eps c : valid_cell c -> strain_small eps ->
  laue_b_to_epsilon_old (laue_epsilon_to_b_old eps c) c = eps.
Proof.
  intros Hc Hs. pose proof (laue_a_inv_posdiag c Hc) as HAi.
  pose proof (Amat_posdiag _ _ HAi Hs) as HA.
  destruct (laue_a_to_cell_valid (Amat (laue_form_a_mat_inv c) eps)) as [V _]; [apply Rgt_not_eq, upper_posdiag_det, HA|].
  rewrite laue_b_to_epsilon_old_def, laue_epsilon_to_b_old_def.
  rewrite laue_b_to_cell_inv by exact V. rewrite laue_form_a_of_cell by exact HA.
  apply sym_Amat; exact HAi.
Qed.

Lemma Amat_zero Ai : upper_posdiag Ai -> mmul (Amat Ai (mkV6 0 0 0 0 0 0)) Ai = mI.
Proof.
  intros [[U1 [U2 U3]] [P0 [P1 P2]]]. destruct Ai as [a b c d e f g h i]. cbn in *. subst.
  unfold Amat, mmul, mI; cbn. f_equal; field; repeat split; lra.
Qed.

Lemma laue_zero_strain_old c : valid_cell c -> laue_epsilon_to_b_old (mkV6 0 0 0 0 0 0) c = laue_form_b_mat c.
Proof.
  intros Hc. rewrite laue_epsilon_to_b_old_def.
  rewrite (minv_unique_l _ _ (Amat_zero _ (laue_a_inv_posdiag c Hc))).
  rewrite laue_form_a_mat_inv_def, minv_invol, laue_a_to_cell_inv; [reflexivity | exact Hc | apply Rgt_not_eq, laue_A_det_pos, Hc].
Qed.
