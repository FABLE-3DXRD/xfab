(* C09: find_omega_wedge (GrainSpotter convention): rotation matrix Ry(-wedge).Rz(omega) *)
From Coq Require Import Reals Psatz.
From XV Require Import RealLib Mat3 Atan2 OmegaSolve Gen_laue P09_laue.
Import ListNotations.
Open Scope R_scope.

Definition wedge_mat (wedge w : R) : M3 := mmul (Ry (- wedge)) (Rz w).
Lemma wedge_mat_rot wedge w : is_rot (wedge_mat wedge w).
Proof. apply rot_mmul; auto using rot_Ry, rot_Rz. Qed.

(* turning the wedge back: the equation for omega is Rz(omega) g = Ry(wedge) d *)
Lemma wedge_mat_iff wedge w u d : mvmul (wedge_mat wedge w) u = d <-> mvmul (Rz w) u = mvmul (Ry wedge) d.
Proof.
  unfold wedge_mat. rewrite mvmul_mmul, Ry_neg. split; intros H; [rewrite <- H | rewrite H]; rewrite <- mvmul_mmul.
  - rewrite (rot_UUt _ (rot_Ry wedge)), mvmul_I. reflexivity.
  - rewrite (proj1 (rot_Ry wedge)), mvmul_I. reflexivity.
Qed.

(* the quantities the code computes, named *)
Definition wedge_coseta (g : V3) (tth wedge : R) : R :=
  let n := sqrt (vx g * vx g + vy g * vy g + vz g * vz g) in
  (vz g / n * sqrt (-2 * (cos tth - 1)) + sin wedge * (cos tth - 1)) / cos wedge / sin tth.
Definition wedge_a (g : V3) (tth wedge : R) : R :=
  cos wedge * (cos tth - 1) + sin wedge * sin tth * wedge_coseta g tth wedge.
Definition wedge_omega (g : V3) (tth wedge eta : R) : R :=
  let n := sqrt (vx g * vx g + vy g * vy g + vz g * vz g) in
  let a := wedge_a g tth wedge in
  let b := - sin tth * sin eta in
  let so := (b * (vx g / n) - a * (vy g / n)) / (a * a + b * b) in
  atan2 so ((a * (vx g / n) + b * (vy g / n)) / (a * a + b * b)).

Lemma laue_wedge_refines g tth wedge :
  laue_find_omega_wedge g tth wedge =
  let ce := wedge_coseta g tth wedge in
  if Rlt_dec 1 (Rabs ce) then ([], [])
  else ([wedge_omega g tth wedge (acos ce); wedge_omega g tth wedge (- acos ce)], [acos ce; - acos ce]).
Proof.
  unfold laue_find_omega_wedge, wedge_omega, wedge_a, wedge_coseta; cbv zeta. rewrite !atan2_le_PI. reflexivity.
Qed.

Section Wedge.
Variables (g : V3) (tth wedge : R).
Hypothesis Ht : 0 < tth < PI.
Hypothesis Hg : vx g * vx g + vy g * vy g <> 0.
Hypothesis Hcw : cos wedge <> 0.
Let gn := normalise_to tth g.
Let ce := wedge_coseta g tth wedge.
(* the diffraction vector for eta, turned back by the wedge *)
Let turned (eta : R) : V3 := mvmul (Ry wedge) (mkV3 (- (sin (tth / 2) * sin (tth / 2))) (- sin tth * sin eta / 2) (sin tth * cos eta / 2)).

Lemma turned_length eta : vnorm2 (turned eta) = sin (tth / 2) * sin (tth / 2).
Proof.
  unfold turned. rewrite rot_vnorm2 by apply rot_Ry. destruct (half_angle tth Ht) as (S & _). rewrite S.
  pose proof (sc1 eta). pose proof (sc1 (tth / 2)). unfold vnorm2, vdot; cbn [vx vy vz]. field_simplify_eq. nsatz_R.
Qed.

(* its z-component is that of gn exactly when cos eta is the code's coseta *)
Lemma turned_z eta : vz (turned eta) = vz gn <-> cos eta = ce.
Proof.
  destruct (half_angle tth Ht) as (S & C & Hs & Hch). pose proof (vnorm_pos g (xy_nz_xyz g Hg)) as Np.
  assert (B : ce * (cos wedge * cos (tth / 2)) = vz g / sqrt (vx g * vx g + vy g * vy g + vz g * vz g) - sin wedge * sin (tth / 2)).
  { unfold ce, wedge_coseta; cbv zeta. replace (-2 * (cos tth - 1)) with (2 * (1 - cos tth)) by ring.
    rewrite (sqrt_versin tth Ht), S, C. field. repeat split; lra. }
  unfold turned, gn, normalise_to, mvmul, Ry; cbv zeta; cbn [vx vy vz m20 m21 m22]. rewrite S. set (n := sqrt _) in *.
  split; intros H.
  - apply (Rmult_eq_reg_r (cos wedge * cos (tth / 2))); [rewrite B | apply Rmult_integral_contrapositive_currified; lra].
    apply (Rmult_eq_reg_l (sin (tth / 2))); lra.
  - rewrite H. transitivity (sin (tth / 2) * (ce * (cos wedge * cos (tth / 2)) + sin wedge * sin (tth / 2))); [field | rewrite B; field; lra].
Qed.

(* one solution: eta with cos eta = ce *)
Lemma wedge_solution eta : cos eta = ce ->
  diffracts (wedge_mat wedge (wedge_omega g tth wedge eta)) gn tth eta /\ - PI < wedge_omega g tth wedge eta <= PI.
Proof.
  intros Hc. split; [|apply atan2_range]. apply wedge_mat_iff. fold (turned eta).
  pose proof (proj2 (turned_z eta) Hc) as Vz. pose proof (turned_length eta) as Vn. unfold vnorm2, vdot in Vn. rewrite Vz in Vn.
  pose proof (normalise_length tth g (xy_nz_xyz g Hg)) as Gn. pose proof (normalise_xy tth g Ht Hg) as Gxy. cbv zeta in Gn, Gxy. fold gn in Gn, Gxy.
  destruct (half_angle tth Ht) as (S & C & Hs & _). pose proof (vnorm_pos g (xy_nz_xyz g Hg)) as Np.
  (* the code's a and b are twice the x and y components of the turned vector *)
  assert (Ea : wedge_a g tth wedge = 2 * vx (turned eta)).
  { unfold wedge_a. fold ce. rewrite <- Hc, C. unfold turned, mvmul, Ry; cbn [vx vy vz m00 m01 m02]. field. }
  assert (Eb : - sin tth * sin eta = 2 * vy (turned eta)) by (unfold turned, mvmul, Ry; cbn [vx vy vz m10 m11 m12]; field).
  set (qx := vx (turned eta)) in *. set (qy := vy (turned eta)) in *.
  assert (Hq : 0 < (2 * qx) * (2 * qx) + (2 * qy) * (2 * qy)) by nra.
  (* and its so, co are the cross and dot products of the xy parts of gn and of the turned vector, up to a positive factor *)
  destruct (atan2_rotates (2 / (sin (tth / 2) * ((2 * qx) * (2 * qx) + (2 * qy) * (2 * qy)))) (vx gn) (vy gn) qx qy) as [Ex Ey];
    [apply Rdiv_lt_0_compat; nra | exact Gxy | lra |].
  replace (atan2 _ _) with (wedge_omega g tth wedge eta) in Ex, Ey.
  - apply V3_ext; unfold Rz, mvmul; cbn [vx vy vz m00 m01 m02 m10 m11 m12 m20 m21 m22]; fold qx qy; lra.
  - unfold wedge_omega; cbv zeta. rewrite Ea, Eb. unfold gn, normalise_to; cbv zeta; cbn [vx vy]. f_equal; field; repeat split; lra.
Qed.
End Wedge.

Theorem laue_find_omega_wedge_sound g tth wedge oms etas :
  0 < tth < PI -> vx g * vx g + vy g * vy g <> 0 -> cos wedge <> 0 ->
  laue_find_omega_wedge g tth wedge = (oms, etas) ->
  let gn := normalise_to tth g in let ce := wedge_coseta g tth wedge in
  (1 < Rabs ce -> oms = [] /\ etas = []) /\
  (Rabs ce <= 1 ->
     exists w1 w2, oms = [w1; w2] /\ etas = [acos ce; - acos ce] /\
       diffracts (wedge_mat wedge w1) gn tth (acos ce) /\ diffracts (wedge_mat wedge w2) gn tth (- acos ce) /\
       - PI < w1 <= PI /\ - PI < w2 <= PI).
Proof.
  intros Ht Hg Hcw E gn ce. rewrite laue_wedge_refines in E. cbv zeta in E. fold ce in E.
  destruct (Rlt_dec 1 (Rabs ce)) as [L|L]; injection E as <- <-.
  - split; [auto | intros; lra].
  - split; [intros; lra|]. intros Hle.
    assert (B : -1 <= ce <= 1) by (apply abs_iff; exact Hle).
    destruct (wedge_solution g tth wedge Ht Hg Hcw (acos ce)) as [D1 R1]; [apply cos_acos; exact B|].
    destruct (wedge_solution g tth wedge Ht Hg Hcw (- acos ce)) as [D2 R2]; [rewrite cos_neg; apply cos_acos; exact B|].
    eexists _, _. split; [reflexivity|]. split; [reflexivity|]. split; [exact D1|]. split; [exact D2|]. split; [exact R1 | exact R2].
Qed.

(* none missed: any omega in (-pi, pi] that brings the x-component to -sin^2(theta) is returned (and then |cos eta| <= 1) *)
Theorem laue_find_omega_wedge_complete g tth wedge w :
  0 < tth < PI -> vx g * vx g + vy g * vy g <> 0 -> cos wedge <> 0 ->
  let gn := normalise_to tth g in
  - PI < w <= PI -> vx (mvmul (wedge_mat wedge w) gn) = - (sin (tth / 2) * sin (tth / 2)) ->
  Rabs (wedge_coseta g tth wedge) <= 1 /\ In w (fst (laue_find_omega_wedge g tth wedge)).
Proof.
  intros Ht Hg Hcw gn Hw Hx. pose proof (xy_nz_xyz g Hg) as Hg3.
  pose proof (eta_completes (wedge_mat wedge w) gn tth (wedge_mat_rot wedge w) Ht (normalise_length tth g Hg3) Hx) as D.
  set (eta := eta_of (wedge_mat wedge w) gn tth) in *.
  assert (Er : - PI < eta <= PI) by (unfold eta, eta_of; apply atan2_range).
  (* cos eta = coseta, from the z components *)
  assert (Hc : cos eta = wedge_coseta g tth wedge).
  { apply (turned_z g tth wedge Ht Hg Hcw). apply wedge_mat_iff in D. rewrite <- D. fold gn. unfold Rz, mvmul; cbn [vz m20 m21 m22]. ring. }
  assert (Hle : Rabs (wedge_coseta g tth wedge) <= 1) by (rewrite <- Hc; apply Rabs_le; pose proof (COS_bound eta); lra).
  split; [exact Hle|].
  destruct (wedge_solution g tth wedge Ht Hg Hcw eta Hc) as [D' R'].
  set (w' := wedge_omega g tth wedge eta) in *.
  assert (Eq : w = w').
  { apply (Rz_xy_inj gn); [apply normalise_xy; assumption | exact Hw | exact R' |].
    apply wedge_mat_iff in D, D'. rewrite D. symmetry. exact D'. }
  rewrite laue_wedge_refines. cbv zeta. destruct (Rlt_dec 1 _) as [L|_]; [lra|]. cbn [fst].
  destruct (Rle_dec 0 eta) as [Pos|Neg].
  - left. rewrite Eq. unfold w'. f_equal. rewrite <- Hc. apply acos_cos. lra.
  - right. left. rewrite Eq. unfold w'. f_equal. rewrite <- Hc, <- (cos_neg eta), acos_cos by lra. ring.
Qed.

Lemma laue_find_omega_wedge_members g tth wedge w :
  0 < tth < PI -> vx g * vx g + vy g * vy g <> 0 -> cos wedge <> 0 ->
  In w (fst (laue_find_omega_wedge g tth wedge)) <->
  - PI < w <= PI /\ vx (mvmul (wedge_mat wedge w) (normalise_to tth g)) = - (sin (tth / 2) * sin (tth / 2)).
Proof.
  intros Ht Hg Hcw. split.
  - intros Hin. destruct (laue_find_omega_wedge g tth wedge) as [oms etas] eqn:E. cbn [fst] in Hin.
    destruct (laue_find_omega_wedge_sound g tth wedge oms etas Ht Hg Hcw E) as [Hempty Htwo]. cbv zeta in Hempty, Htwo.
    destruct (Rlt_dec 1 (Rabs (wedge_coseta g tth wedge))) as [L|L].
    + destruct (Hempty L) as [-> _]. destruct Hin.
    + destruct (Htwo ltac:(lra)) as (w1 & w2 & -> & _ & D1 & D2 & R1 & R2). unfold diffracts in D1, D2.
      destruct Hin as [<-|[<-|[]]]; (split; [assumption|]); [rewrite D1 | rewrite D2]; reflexivity.
  - intros [H1 H2]. exact (proj2 (laue_find_omega_wedge_complete g tth wedge w Ht Hg Hcw H1 H2)).
Qed.

(* the form of cos(omega) used before the repair of F14 (division by the code's a) agrees wherever it is defined.  Over abstract
   values: (gx,gy,gz) unit vector, sh/ch = sin/cos(theta), sw/cw = sin/cos(wedge), ce/se = cos/sin(eta); of the hypotheses the
   proof needs a <> 0 only *)
Section Core.
Variables gx gy gz sh ch sw cw ce se : R.
Hypothesis Hg : gx * gx + gy * gy + gz * gz = 1.
Hypothesis Hh : sh * sh + ch * ch = 1.
Hypothesis Hw : sw * sw + cw * cw = 1.
Hypothesis He : se * se + ce * ce = 1.
Hypothesis Hce : ce * cw * (2 * sh * ch) = gz * (2 * sh) + sw * (- 2 * sh * sh).
Hypothesis Hsh : 0 < sh.
Hypothesis Hxy : gx * gx + gy * gy <> 0.

Let a := cw * (- 2 * sh * sh) + sw * (2 * sh * ch) * ce.
Let b := - (2 * sh * ch) * se.
Let D := a * a + b * b.
Let so := (b * gx - a * gy) / D.
Let co := (a * gx + b * gy) / D.

Lemma core_co_old : a <> 0 -> (gx - b * so) / a = co.
Proof using Hg Hh Hw He Hce Hsh Hxy. intros Ha. unfold co, so, D. field. split; [nra | exact Ha]. Qed.
End Core.
