(* C09: find_omega (rotation about z, no tilt) *)
From Coq Require Import Reals Psatz.
From XV Require Import RealLib Mat3 OmegaSolve Gen_laue P03_laue P09_laue.
Import ListNotations.
Open Scope R_scope.

Definition acos_signed (co si : R) : R := if Rlt_dec si 0 then - acos co else acos co.

Lemma acos_signed_spec co si : si * si + co * co = 1 ->
  cos (acos_signed co si) = co /\ sin (acos_signed co si) = si /\ - PI < acos_signed co si <= PI.
Proof.
  intros U. assert (B : -1 <= co <= 1) by (split; nra).
  pose proof (acos_bound co) as AB. pose proof PI_RGT_0 as P.
  assert (C : cos (acos co) = co) by (apply cos_acos; exact B).
  assert (S : sin (acos co) = sqrt (si * si)).
  { rewrite sin_acos by exact B. f_equal. unfold Rsqr. lra. }
  unfold acos_signed. destruct (Rlt_dec si 0) as [L|L].
  - rewrite cos_neg, sin_neg, C, S. replace (si * si) with ((- si) * (- si)) by ring. rewrite sqrt_square by lra.
    repeat split; try lra.
    destruct (Req_dec (acos co) PI) as [E|N]; [|lra]. exfalso. rewrite E, cos_PI in C. subst co. nra.
  - rewrite C, S, sqrt_square by lra. repeat split; lra.
Qed.

Definition omega_plain_model (gn : V3) (tth : R) : list R :=
  let gg := sqrt (vx gn * vx gn + vy gn * vy gn + vz gn * vz gn) in
  let a := vx gn / gg in let b := - vy gn / gg in
  let c := (cos tth - 1) / sqrt (2 * (1 - cos tth)) in
  let n := a ^ 2 + b ^ 2 in
  let d := n - c ^ 2 in
  if Rlt_dec 0 d then
    let sq := sqrt d in
    [acos_signed ((a * c + b * sq) / n) ((b * c - a * sq) / n);
     acos_signed ((a * c + b * sq) / n - 2 * b * sq / n) ((b * c - a * sq) / n + 2 * a * sq / n)]
  else [].

(* the left-hand side is the shape of find_omega in both modules; the generated functions are convertible to instances of it
   with their lets shared, so the case analysis is done once, here, on variables *)
Lemma plain_code_shape a b c :
  (let n := a ^ 2 + b ^ 2 in
   let d := n - c ^ 2 in
   let sq := sqrt d in
   let co := (a * c + b * sq) / n in
   let si := (b * c - a * sq) / n in
   let si' := si + 2 * a * sq / n in
   let co' := co - 2 * b * sq / n in
   if Rlt_dec 0 d then
     if Rlt_dec si 0 then (if Rlt_dec si' 0 then [- acos co; - acos co'] else [- acos co; acos co'])
     else (if Rlt_dec si' 0 then [acos co; - acos co'] else [acos co; acos co'])
   else [])
  = let n := a ^ 2 + b ^ 2 in
    let d := n - c ^ 2 in
    if Rlt_dec 0 d then
      let sq := sqrt d in
      [acos_signed ((a * c + b * sq) / n) ((b * c - a * sq) / n);
       acos_signed ((a * c + b * sq) / n - 2 * b * sq / n) ((b * c - a * sq) / n + 2 * a * sq / n)]
    else [].
Proof. cbv zeta. unfold acos_signed. destruct (Rlt_dec 0 _); [|reflexivity]. destruct (Rlt_dec _ 0), (Rlt_dec _ 0); reflexivity. Qed.

Lemma laue_plain_refines g tth : laue_find_omega g tth = omega_plain_model (normalise_to tth g) tth.
Proof. exact (plain_code_shape _ _ _). Qed.

Section Plain.
Variables (gn : V3) (tth : R).
Hypothesis Ht : 0 < tth < PI.
Hypothesis Hn : vx gn * vx gn + vy gn * vy gn + vz gn * vz gn = sin (tth / 2) * sin (tth / 2).

Lemma plain_c : (cos tth - 1) / sqrt (2 * (1 - cos tth)) = - sin (tth / 2).
Proof. destruct (half_angle tth Ht) as (_ & E & P & _). rewrite (sqrt_versin tth Ht), E. field. lra. Qed.

Lemma plain_x w : vx (mvmul (Rz w) gn) = vx gn * cos w - vy gn * sin w.
Proof. destruct gn as [x y z]. mcbv. ring. Qed.

Lemma plain_sound w : vx gn * vx gn + vy gn * vy gn <> 0 -> In w (omega_plain_model gn tth) ->
  vx (mvmul (Rz w) gn) = - (sin (tth / 2) * sin (tth / 2)) /\ - PI < w <= PI.
Proof.
  (* with |gn| = s = sin(theta) the code's coefficients are a = gx / s, b = - gy / s, c = - s; its two (cos, sin) pairs are the two
     roots of trig_roots, the second written as the first minus 2 sq (b, -a) / (a^2 + b^2) *)
  intros Hxy. destruct (half_angle tth Ht) as (_ & _ & P & _).
  unfold omega_plain_model; cbv zeta. rewrite Hn, plain_c. rewrite sqrt_square by lra.
  set (s := sin (tth / 2)) in *. set (a := vx gn / s). set (b := - vy gn / s). cbn [Rpow_def.pow]. rewrite !Rmult_1_r.
  assert (Hab : a * a + b * b <> 0).
  { replace (a * a + b * b) with ((vx gn * vx gn + vy gn * vy gn) * / (s * s)) by (unfold a, b; field; lra).
    apply Rmult_integral_contrapositive_currified; [exact Hxy | apply Rinv_neq_0_compat; nra]. }
  destruct (Rlt_dec 0 (a * a + b * b - - s * - s)) as [L|L]; [|intros []].
  assert (Q : sqrt (a * a + b * b - - s * - s) * sqrt (a * a + b * b - - s * - s) = a * a + b * b - - s * - s) by (apply sqrt_sqrt; lra).
  set (sq := sqrt (a * a + b * b - - s * - s)) in *.
  rewrite plain_x.
  assert (K : forall co si, si * si + co * co = 1 /\ a * co + b * si = - s ->
              vx gn * cos (acos_signed co si) - vy gn * sin (acos_signed co si) = - (s * s) /\ - PI < acos_signed co si <= PI).
  { intros co si [U E]. destruct (acos_signed_spec _ _ U) as (C & S & Rg). rewrite C, S. split; [|exact Rg].
    transitivity (s * (a * co + b * si)); [unfold a, b; field; lra | rewrite E; ring]. }
  intros [<-|[<-|[]]]; apply K, (trig_roots a b (- s) sq _ _ Hab Q).
  - left. split; reflexivity.
  - right. split; field; exact Hab.
Qed.
End Plain.

Theorem laue_find_omega_sound g tth w : 0 < tth < PI -> vx g * vx g + vy g * vy g <> 0 ->
  In w (laue_find_omega g tth) ->
  vx (mvmul (laue_form_omega_mat w) (normalise_to tth g)) = - (sin (tth / 2) * sin (tth / 2)) /\ - PI < w <= PI.
Proof.
  intros Ht Hxy Hin. rewrite laue_plain_refines in Hin. rewrite laue_omega_comp.
  exact (plain_sound _ _ Ht (normalise_length tth g (xy_nz_xyz g Hxy)) w (normalise_xy tth g Ht Hxy) Hin).
Qed.
