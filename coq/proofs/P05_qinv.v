(* C05 / C06: in the monotone systems the reciprocal metric is invariant under the Laue group of the segment table, so the
   hypothesis  q (h R) = q h  of the end-to-end theorems holds for every conforming metric. *)
From Coq Require Import ZArith List Bool String.
From XV Require Import SGroup Traverse Tab_sg_all P05_complete P06_fd_main.
Import ListNotations.
Open Scope Z_scope.

(* q (h R) is the form whose matrix is the Gram matrix of the rows of R *)
Definition mconj (R : mat) (G : metricZ) : metricZ :=
  let '(a, b, c, d, e, f, g, h, i) := R in
  mkMet (qform G (a, b, c)) (qform G (d, e, f)) (qform G (g, h, i))
        (bil G (a, b, c) (d, e, f)) (bil G (a, b, c) (g, h, i)) (bil G (d, e, f) (g, h, i)).
Lemma qform_vmZ G R h : qform G (vmZ h R) = qform (mconj R G) h.
Proof.
  destruct h as [[x y] z], R as [[[[[[[[a b] c] d] e] f] g] k] i].
  unfold mconj, vmZ, qform, bil; cbn [g11 g22 g33 g12 g13 g23]. ring.
Qed.

Definition met_eqb (A B : metricZ) : bool :=
  (g11 A =? g11 B) && (g22 A =? g22 B) && (g33 A =? g33 B) && (g12 A =? g12 B) && (g13 A =? g13 B) && (g23 A =? g23 B).
Lemma met_eqb_eq A B : met_eqb A B = true -> A = B.
Proof.
  destruct A as [a1 a2 a3 a4 a5 a6], B as [b1 b2 b3 b4 b5 b6]. unfold met_eqb; cbn. rewrite !andb_true_iff, !Z.eqb_eq.
  intros [[[[[-> ->] ->] ->] ->] ->]. reflexivity.
Qed.

Definition q_invariant (R : mat) (G : metricZ) : Prop := forall h, qform G (vmZ h R) = qform G h.

Lemma invariant_zero R : q_invariant R mzero.
Proof. intros h. destruct h as [[x y] z], (vmZ (x, y, z) R) as [[x' y'] z']. reflexivity. Qed.
Lemma invariant_maxpy R a A B : 0 <= a -> q_invariant R A -> q_invariant R B -> q_invariant R (maxpy a A B).
Proof. intros _ HA HB h. rewrite !qform_maxpy, (HA h), (HB h). reflexivity. Qed.

Lemma fix_rows : forallb (fun row => match fd_lookup (fst row) "standard" with
                                     | Some e => forallb (fun R => forallb (fun E => met_eqb (mconj R E) E) (gens (snd row))) (snd (fst e))
                                     | None => false
                                     end) mono_rows = true.
Proof. vm_compute. reflexivity. Qed.

Local Open Scope string_scope.
Lemma qinv_system laue choice G e : (choice = "standard" \/ choice = "hexagonal") -> monotone_system laue choice G ->
  fd_lookup laue choice = Some e -> forall R, In R (snd (fst e)) -> forall h, qform G (vmZ h R) = qform G h.
Proof.
  intros Hc HM He R HR. destruct (monotone_system_row laue choice G HM) as (c & Hrow & HG).
  rewrite (fd_lookup_choice laue choice "standard") in He by (destruct Hc as [-> | ->]; reflexivity).
  pose proof (proj1 (forallb_forall _ _) fix_rows _ Hrow) as F. cbn [fst snd] in F. rewrite He in F.
  rewrite forallb_forall in F. specialize (F R HR). rewrite forallb_forall in F.
  apply (class_closed (q_invariant R) c G HG (invariant_zero R) (invariant_maxpy R)). intros M HM' h. rewrite qform_vmZ, (met_eqb_eq _ _ (F M HM')). reflexivity.
Qed.
Local Close Scope string_scope.

(* for a setting: its Laue group is contained in the group of its table entry *)
Lemma qinv_setting s L G : In s all_settings -> laue_mats s = Some L ->
  (sg_choice s = "standard" \/ sg_choice s = "hexagonal")%string -> monotone_system (sg_laue s) (sg_choice s) G ->
  forall R h, In R L -> qform G (vmZ h R) = qform G h.
Proof.
  intros Hs HL Hc HM R h HR. destruct (fd_setting_spec s L Hs HL) as (e & _ & El & _ & HG).
  exact (qinv_system _ _ G e Hc HM El R (proj1 (HG R) HR) h).
Qed.
