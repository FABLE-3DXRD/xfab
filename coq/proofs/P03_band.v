(* C03: u_to_euler inside the tolerance bands of _arctan2 (an argument below 1e-8 of the other is snapped to the axis value):
   the reconstructed matrix differs from U by at most 12e-8 in every entry, outside the gimbal band. *)
From Coq Require Import Reals Psatz.
From XV Require Import Mat3 MatBound Atan2 Gen_laue P03_euler.
Open Scope R_scope.

Definition tol : R := 1 / 100000000.

Lemma hyp_facts x y : x <> 0 \/ y <> 0 -> let p := sqrt (x * x + y * y) in
  0 < p /\ Rabs x <= p /\ Rabs y <= p /\ p <= Rabs x + Rabs y.
Proof.
  intros H p. assert (Hp : 0 < p) by (apply hyp_pos; exact H).
  assert (Hs : p * p = x * x + y * y) by (apply sqrt_sqrt; nra).
  unfold Rabs. destruct (Rcase_abs x), (Rcase_abs y); repeat split; try exact Hp; nra.
Qed.

(* (a, b) with a below 1e-8 of b: the direction cosines of (0, b) are within 1e-8 of those of (a, b) *)
Lemma snap_dircos a b : b <> 0 -> Rabs a <= tol * Rabs b -> let p := sqrt (a * a + b * b) in
  Rabs (0 / Rabs b - a / p) <= tol /\ Rabs (b / Rabs b - b / p) <= tol.
Proof.
  intros Hb Ha p. destruct (hyp_facts a b (or_intror Hb)) as (Hp & Ba & Bb & Bs). fold p in Hp, Ba, Bb, Bs. unfold tol in *.
  assert (Q : forall u, Rabs u <= 1 / 100000000 * p -> Rabs (u / p) <= 1 / 100000000).
  { intros u Hu. unfold Rdiv at 1. rewrite Rabs_mult, (Rabs_right (/ p)) by (left; apply Rinv_0_lt_compat; exact Hp).
    apply (Rmult_le_reg_r p); [exact Hp|]. rewrite Rmult_assoc, Rinv_l by lra. lra. }
  split.
  - replace (0 / Rabs b - a / p) with ((- a) / p) by (field; split; [lra | apply Rabs_no_R0; exact Hb]).
    apply Q. rewrite Rabs_Ropp. lra.
  - destruct (Rcase_abs b) as [N|N].
    + rewrite (Rabs_left b) in * by exact N. replace (b / - b - b / p) with ((- p - b) / p) by (field; lra).
      apply Q. rewrite Rabs_left1 by lra. lra.
    + rewrite (Rabs_right b) in * by exact N. replace (b / b - b / p) with ((p - b) / p) by (field; lra).
      apply Q. rewrite Rabs_right by lra. lra.
Qed.

Lemma sq_abs b : 0 * 0 + b * b = Rabs b * Rabs b.
Proof. rewrite <- Rabs_mult, Rabs_right by nra. ring. Qed.

(* the returned angle has the direction cosines of (x, y) up to 1e-8 *)
Lemma arctan2_cs y x r : laue_arctan2 y x = Some r -> let p := sqrt (x * x + y * y) in
  0 < p /\ Rabs (cos r - x / p) <= tol /\ Rabs (sin r - y / p) <= tol.
Proof.
  intros H p. apply arctan2_inv in H as [N ->]. split; [apply hyp_pos; exact N|].
  unfold snap. fold tol. destruct (Rlt_dec (Rabs x) (tol * Rabs y)) as [Sx|Sx], (Rlt_dec (Rabs y) (tol * Rabs x)) as [Sy|Sy].
  - unfold tol in *. pose proof (Rabs_pos x). lra.
  - assert (Hy : y <> 0) by (intros ->; rewrite Rabs_R0 in Sx; pose proof (Rabs_pos x); lra).
    assert (Py : 0 < Rabs y) by (apply Rabs_pos_lt; exact Hy).
    rewrite (cos_atan2_r y 0 (Rabs y)), (sin_atan2_r y 0 (Rabs y)) by (exact Py || apply sq_abs).
    apply snap_dircos; [exact Hy | lra].
  - assert (Hx : x <> 0) by (intros ->; rewrite Rabs_R0 in Sy; pose proof (Rabs_pos y); lra).
    assert (Px : 0 < Rabs x) by (apply Rabs_pos_lt; exact Hx).
    rewrite (cos_atan2_r 0 x (Rabs x)), (sin_atan2_r 0 x (Rabs x)) by (exact Px || (rewrite Rplus_comm; apply sq_abs)).
    unfold p. rewrite Rplus_comm. apply and_comm. apply snap_dircos; [exact Hx | lra].
  - rewrite (cos_atan2 y x N), (sin_atan2 y x N). unfold Rminus. rewrite !Rplus_opp_r, Rabs_R0. unfold tol. lra.
Qed.

(* entrywise closeness of matrices: mclose e A B is mbound e (msub A B), by computation *)
Definition mclose (e : R) (A B : M3) : Prop :=
  Rabs (m00 A - m00 B) <= e /\ Rabs (m01 A - m01 B) <= e /\ Rabs (m02 A - m02 B) <= e /\
  Rabs (m10 A - m10 B) <= e /\ Rabs (m11 A - m11 B) <= e /\ Rabs (m12 A - m12 B) <= e /\
  Rabs (m20 A - m20 B) <= e /\ Rabs (m21 A - m21 B) <= e /\ Rabs (m22 A - m22 B) <= e.

Lemma mclose_le e e' A B : e <= e' -> mclose e A B -> mclose e' A B.
Proof. exact (fun H => mbound_le e e' (msub A B) H). Qed.

Lemma mclose_refl A : mclose 0 A A.
Proof. unfold mclose, Rminus. rewrite !Rplus_opp_r, Rabs_R0. repeat split; apply Rle_refl. Qed.

(* A B - A' B' = (A - A') B + A' (B - B') *)
Lemma mclose_mmul e1 e2 A A' B B' : mclose e1 A A' -> mclose e2 B B' -> mbound 1 B -> mbound 1 A' ->
  mclose (3 * e1 + 3 * e2) (mmul A B) (mmul A' B').
Proof.
  intros HA HB B1 A1. change (mbound (3 * e1 + 3 * e2) (msub (mmul A B) (mmul A' B'))).
  replace (msub (mmul A B) (mmul A' B')) with (madd (mmul (msub A A') B) (mmul A' (msub B B'))) by mat_ring.
  apply mbound_madd; [rewrite <- (Rmult_1_r e1) | rewrite <- (Rmult_1_l e2)]; apply mbound_mmul; assumption.
Qed.

Lemma rot_mbound U : is_rot U -> mbound 1 U.
Proof. intros [H _]. exact (orth_mbound U H). Qed.

Lemma mclose_Rz e r t : Rabs (cos r - cos t) <= e -> Rabs (sin r - sin t) <= e -> mclose e (Rz r) (Rz t).
Proof.
  intros Hc Hs. pose proof (Rle_trans _ _ _ (Rabs_pos _) Hc) as He. unfold mclose, Rz; cbn [m00 m01 m02 m10 m11 m12 m20 m21 m22].
  replace (- sin r - - sin t) with (- (sin r - sin t)) by ring. rewrite Rabs_Ropp.
  replace (0 - 0) with 0 by ring. replace (1 - 1) with 0 by ring. rewrite Rabs_R0. repeat split; assumption.
Qed.

Lemma arctan2_Rz y x r : laue_arctan2 y x = Some r -> mclose tol (Rz r) (Rz (atan2 y x)).
Proof.
  intros H. destruct (arctan2_inv _ _ _ H) as [N _]. destruct (arctan2_cs _ _ _ H) as (_ & C & S). cbv zeta in *.
  apply mclose_Rz; [rewrite (cos_atan2 _ _ N) | rewrite (sin_atan2 _ _ N)]; assumption.
Qed.

Theorem euler_band U e : is_rot U -> not_gimbal U -> laue_u_to_euler U = Some e ->
  mclose (12 * tol) (laue_euler_to_u (vx e) (vy e) (vz e)) U.
Proof.
  intros HR NG H.
  destruct (u_to_euler_inv U e H) as (r3 & r4 & E & _ & ->). rewrite (euler_raw_generic U NG) in E.
  destruct (laue_arctan2 (m02 U) (- m12 U)) as [r|] eqn:E3; [|discriminate].
  destruct (laue_arctan2 (m20 U) (m21 U)) as [r'|] eqn:E4; [|discriminate]. injection E as -> ->.
  assert (Hnz : m12 U <> 0 \/ m02 U <> 0) by (destruct (arctan2_inv _ _ _ E3) as [[N|N] _]; [left; lra | right; exact N]).
  rewrite <- (euler_main U HR Hnz) at 2.
  replace (12 * tol) with (3 * tol + 3 * (3 * 0 + 3 * tol)) by ring.
  apply mclose_mmul; [exact (arctan2_Rz _ _ _ E3) | | apply rot_mbound; apply rot_mmul; auto using rot_Rx, rot_Rz | apply rot_mbound, rot_Rz].
  apply mclose_mmul; [apply mclose_refl | exact (arctan2_Rz _ _ _ E4) | apply rot_mbound, rot_Rz | apply rot_mbound, rot_Rx].
Qed.
