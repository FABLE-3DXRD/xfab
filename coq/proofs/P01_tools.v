(* C01 for xfab.tools, derived from the laue lemmas through the C14 bridge lemmas *)
From Coq Require Import Reals.
From XV Require Import Mat3 Cell Gen_tools P01_laue P14_cell.
Open Scope R_scope.

Lemma tools_A_upper_posdiag c : valid_cell c -> upper_posdiag (tools_form_a_mat c).
Proof. rewrite tl_form_a_mat. apply laue_A_upper_posdiag. Qed.
Lemma tools_A_metric c : valid_cell c -> mmul (mtrans (tools_form_a_mat c)) (tools_form_a_mat c) = metric c.
Proof. rewrite tl_form_a_mat. apply laue_A_metric. Qed.

Lemma tools_B_upper_posdiag c : valid_cell c -> upper_posdiag (tools_form_b_mat c).
Proof.
  intros H. rewrite tl_form_b_mat by exact H. apply upper_posdiag_mscale; [exact two_pi_pos | apply laue_B_upper_posdiag; exact H].
Qed.

Lemma tools_B_recip_metric c : valid_cell c ->
  mmul (mmul (mtrans (tools_form_b_mat c)) (tools_form_b_mat c)) (metric c) = mscale ((2 * PI) * (2 * PI)) mI.
Proof.
  intros H. rewrite tl_form_b_mat by exact H.
  rewrite mtrans_mscale, mmul_mscale_l, mmul_mscale_r, mscale_mscale, mmul_mscale_l, laue_B_recip_metric by exact H.
  reflexivity.
Qed.

Lemma tools_detA_volume c : valid_cell c -> mdet (tools_form_a_mat c) = tools_cell_volume c.
Proof. rewrite tl_form_a_mat, tl_cell_volume. apply laue_detA_volume. Qed.
Lemma tools_volume_sq c : valid_cell c -> tools_cell_volume c * tools_cell_volume c = mdet (metric c).
Proof. rewrite tl_cell_volume. apply laue_volume_sq. Qed.

Lemma tools_sintl_norm c h : valid_cell c ->
  tools_sintl c h = vnorm (mvmul (tools_form_b_mat c) h) / (4 * PI).
Proof.
  intros H. rewrite tl_sintl, tl_form_b_mat, laue_sintl_norm by exact H.
  rewrite mvmul_mscale, vnorm_vscale by (left; exact two_pi_pos). field. apply PI_neq0.
Qed.

Lemma tools_a_to_cell_inv c : valid_cell c -> tools_a_to_cell (tools_form_a_mat c) = c.
Proof. rewrite tl_a_to_cell, tl_form_a_mat. apply laue_a_to_cell_inv. Qed.
Lemma tools_b_to_cell_inv c : valid_cell c -> tools_b_to_cell (tools_form_b_mat c) = c.
Proof. intros H. rewrite tl_form_b_mat, tl_b_to_cell by exact H. apply laue_b_to_cell_inv; exact H. Qed.
Lemma tools_cell_invert_valid c : valid_cell c -> valid_cell (tools_cell_invert c).
Proof. rewrite tl_cell_invert. apply laue_cell_invert_valid. Qed.
Lemma tools_cell_invert_metric c : valid_cell c -> mmul (metric (tools_cell_invert c)) (metric c) = mI.
Proof. rewrite tl_cell_invert. apply laue_cell_invert_metric. Qed.
Lemma tools_cell_invert_involutive c : valid_cell c -> tools_cell_invert (tools_cell_invert c) = c.
Proof. rewrite !tl_cell_invert. apply laue_cell_invert_involutive. Qed.
Lemma tools_a_mat_inv c : valid_cell c ->
  mmul (tools_form_a_mat_inv c) (tools_form_a_mat c) = mI /\ mmul (tools_form_a_mat c) (tools_form_a_mat_inv c) = mI.
Proof. rewrite tl_form_a_mat_inv, tl_form_a_mat. apply laue_a_mat_inv. Qed.
