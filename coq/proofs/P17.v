(* C17: the text handling of CIF / PDB ingestion *)
From Coq Require Import List Bool Ascii String Lia.
From XV Require Import Str Dedup SGroup Ingest Tab_sgnames.
Import ListNotations.
Open Scope string_scope.

Fixpoint no_paren (s : string) : bool :=
  match s with EmptyString => true | String c r => negb (Ascii.eqb c "("%char) && no_paren r end.

Lemma take_app d s : no_paren d = true -> take_until_paren (d ++ s) = d ++ take_until_paren s.
Proof. induction d as [|c d IH]; cbn; [reflexivity|]. intros H. apply andb_prop in H. destruct H as [H1 H2].
  destruct (Ascii.eqb c "("); [discriminate|]. rewrite IH by exact H2. reflexivity. Qed.
Lemma take_no_paren d : no_paren d = true -> take_until_paren d = d.
Proof. intros H. rewrite <- (app_empty_r d) at 1. rewrite take_app by exact H. apply app_empty_r. Qed.
Lemma take_esd d u : no_paren d = true -> take_until_paren (d ++ String "("%char u) = d.
Proof. intros H. rewrite take_app by exact H. apply app_empty_r. Qed.

(* standard uncertainties in parentheses are ignored, whatever follows the opening parenthesis *)
Theorem esd_ignored {X} (pf : string -> option X) d u : no_paren d = true ->
  remove_esd pf (d ++ "(" ++ u) = pf d /\ remove_esd pf d = pf d.
Proof. intros H. unfold remove_esd. change ("(" ++ u) with (String "("%char u). rewrite take_esd, take_no_paren by exact H. split; reflexivity. Qed.

(* whitespace stripping: the result has no whitespace and is the subsequence of the other characters *)
Fixpoint has_ws (s : string) : bool := match s with EmptyString => false | String c r => is_ws c || has_ws r end.
Lemma strip_no_ws s : has_ws (strip_ws s) = false.
Proof. induction s as [|c s IH]; cbn; [reflexivity|]. destruct (is_ws c) eqn:E; [exact IH|]. cbn. rewrite E, IH. reflexivity. Qed.
Lemma strip_id s : has_ws s = false -> strip_ws s = s.
Proof. induction s as [|c s IH]; cbn; [reflexivity|]. intros H. apply orb_false_elim in H. destruct H as [H1 H2]. rewrite H1, IH by exact H2. reflexivity. Qed.
Lemma strip_app a b : strip_ws (a ++ b) = strip_ws a ++ strip_ws b.
Proof. induction a as [|c a IH]; cbn; [reflexivity|]. destruct (is_ws c); cbn; rewrite IH; reflexivity. Qed.

(* PDB symbol: split / join round trip for well-formed tokens, then the '1' tokens are dropped *)
Definition tok_ok (t : string) : bool := negb (String.eqb t "") && negb (has_ws t).
Fixpoint join_sp (l : list string) : string :=
  match l with [] => "" | [t] => t | t :: r => t ++ " " ++ join_sp r end.

Lemma split_aux_tok t cur rest : has_ws t = false ->
  split_ws_aux (t ++ rest) cur = split_ws_aux rest (cur ++ t).
Proof.
  revert cur; induction t as [|c t IH]; intros cur H; cbn.
  - rewrite app_empty_r. reflexivity.
  - apply orb_false_elim in H. destruct H as [H1 H2]. rewrite H1. rewrite IH by exact H2. rewrite app_assoc'. reflexivity.
Qed.

Lemma eqb_app_nonempty cur t : String.eqb t "" = false -> String.eqb (cur ++ t) "" = false.
Proof. destruct cur; cbn; [auto | reflexivity]. Qed.

Lemma split_join l : forallb tok_ok l = true -> split_ws (join_sp l) = l.
Proof.
  unfold split_ws. induction l as [|t r IH]; intros H; [reflexivity|].
  cbn in H. apply andb_prop in H. destruct H as [Ht Hr]. unfold tok_ok in Ht. apply andb_prop in Ht. destruct Ht as [Hne Hw].
  apply negb_true_iff in Hne. apply negb_true_iff in Hw.
  destruct r as [|t2 r'].
  - cbn [join_sp]. rewrite <- (app_empty_r t) at 1. rewrite split_aux_tok by exact Hw. cbn. rewrite Hne. reflexivity.
  - change (join_sp (t :: t2 :: r')) with (t ++ " " ++ join_sp (t2 :: r')).
    rewrite split_aux_tok by exact Hw. cbn [append split_ws_aux]. replace (is_ws " "%char) with true by reflexivity.
    cbn [append]. rewrite Hne. f_equal. apply IH. exact Hr.
Qed.

Theorem pdb_symbol l : forallb tok_ok l = true ->
  pdb_sg (join_sp l) = fold_right (fun t acc => lower_str t ++ acc) "" (filter (fun t => negb (String.eqb t "1")) l).
Proof. intros H. unfold pdb_sg. rewrite split_join by exact H. reflexivity. Qed.

(* the '1' place-holders are dropped: no token "1" survives, the other tokens appear lower-cased in order *)
Example pdb_symbol_examples :
  pdb_sg "P 21 21 21 " = "p212121" /\ pdb_sg "P 1 21 1" = "p21" /\ pdb_sg " C 1 2 1   " = "c2" /\ pdb_sg "P -1" = "p-1".
Proof. vm_compute. repeat split; reflexivity. Qed.

Lemma slice_spec a b s : length (slice a b s) <= b - a.
Proof.
  unfold slice. generalize (b - a) as k. intros k. revert s a. induction k as [|k IH]; intros s a'; cbn.
  - destruct (drop a' s); cbn; lia.
  - destruct (drop a' s) as [|c r] eqn:E; cbn; [lia|]. specialize (IH r 0). cbn in IH. lia.
Qed.

Definition sg_keys : list string := map (fun e => fst (fst e)) sg_byname.

Lemma pdb_sgname_known field : let full := lower_str (fold_right (fun t acc => t ++ acc) "" (split_ws field)) in
  In full sg_keys -> pdb_sgname sg_keys field = full.
Proof.
  cbv zeta. intros H. unfold pdb_sgname. rewrite (proj2 (existsb_In String.eqb String.eqb_eq _ _) H). reflexivity.
Qed.
Lemma pdb_sgname_unknown field :
  existsb (String.eqb (lower_str (fold_right (fun t acc => t ++ acc) "" (split_ws field)))) sg_keys = false ->
  pdb_sgname sg_keys field = pdb_sg field.
Proof. intros H. unfold pdb_sgname. rewrite H. reflexivity. Qed.

Example pdb_sgname_examples :
  pdb_sgname sg_keys "P 1" = "p1" /\ pdb_sgname sg_keys "P 3 m 1" = "p3m1" /\ pdb_sgname sg_keys "P 3 1 2" = "p312" /\
  pdb_sgname sg_keys "P 1 21/c 1" = "p21/c" /\ pdb_sgname sg_keys "C 1 2 1" = "c2" /\ pdb_sgname sg_keys "P 21 21 21" = "p212121".
Proof. vm_compute. repeat split; reflexivity. Qed.
