(* C20: the hand model model/Checks.v coincides with what vlib/checksgen.py reads from xfab/checks.py on this run (gen/Gen_checks.v):
   same predicates with the same tolerances, same setter, and the guard sites are exactly the sixteen the search harness exercises. *)
From Coq Require Import Reals Lra String.
From XV Require Import RealLib Mat3 Checks Gen_checks P20 P20_near.
Import ListNotations.
Open Scope R_scope.

Lemma gen_check_rotation_iff U : gen_check_rotation U <-> check_rotation U.
Proof. unfold gen_check_rotation, check_rotation, rtol, atol_unitary, atol_det. tauto. Qed.

Lemma gen_check_euler_iff p1 P p2 : gen_check_euler p1 P p2 <-> check_euler p1 P p2.
Proof. unfold gen_check_euler, check_euler. split; intros (A & B & C); repeat split; lra. Qed.

Lemma gen_check_ubi_iff A : gen_check_ubi A <-> check_ubi A.
Proof. unfold gen_check_ubi, check_ubi. split; intros H; lra. Qed.

Lemma gen_assign_eq s v : gen_assign s v = assign s v.
Proof. destruct v; reflexivity. Qed.

Lemma gen_initial_state_eq : gen_initial_state = true.
Proof. reflexivity. Qed.

Lemma gen_run_assign vs : fold_left (fun s v => fst (gen_assign s v)) vs gen_initial_state = run_assign vs.
Proof.
  unfold run_assign, gen_initial_state. generalize true. induction vs as [|v vs IH]; intros s; cbn [fold_left]; [reflexivity|].
  rewrite gen_assign_eq. apply IH.
Qed.

Lemma gen_switch_last_valid vs : fold_left (fun s v => fst (gen_assign s v)) vs gen_initial_state = last_valid vs true.
Proof. rewrite gen_run_assign. apply switch_last_valid. Qed.
Lemma gen_accepts_near U E : is_rot U -> small E (1 / 10000000) -> gen_check_rotation (madd U E).
Proof. intros HU HE. apply gen_check_rotation_iff. apply accepts_near; assumption. Qed.
Lemma gen_rejects_far_offdiag U : Rabs (m01 (mmul (mtrans U) U)) > 1 / 1000000 -> ~ gen_check_rotation U.
Proof. intros H G. apply (rejects_far_offdiag U H). apply gen_check_rotation_iff. exact G. Qed.

Open Scope string_scope.
Definition expected_guard_sites : list string :=
  ["laue.euler_to_u:_check_euler_angles(phi1, PHI, phi2)";
   "laue.u_to_euler:_check_rotation_matrix(U)";
   "laue.u_to_rod:_check_rotation_matrix(U)";
   "laue.u_to_ubi:_check_rotation_matrix(U)";
   "laue.ub_to_u_b:_check_rotation_matrix(U)";
   "laue.ubi_to_u:_check_ubi_matrix(ubi)";
   "laue.ubi_to_u_and_eps:_check_rotation_matrix(U)";
   "symmetry.Umis:_check_rotation_matrix(umat_1)";
   "symmetry.Umis:_check_rotation_matrix(umat_2)";
   "tools.euler_to_u:_check_euler_angles(phi1, PHI, phi2)";
   "tools.u_to_euler:_check_rotation_matrix(U)";
   "tools.u_to_rod:_check_rotation_matrix(U)";
   "tools.u_to_ubi:_check_rotation_matrix(U)";
   "tools.ub_to_u_b:_check_rotation_matrix(U)";
   "tools.ubi_to_u:_check_ubi_matrix(ubi)";
   "tools.ubi_to_u_and_eps:_check_rotation_matrix(U)"].
Lemma guard_sites_as_expected : gen_guard_sites = expected_guard_sites.
Proof. reflexivity. Qed.
