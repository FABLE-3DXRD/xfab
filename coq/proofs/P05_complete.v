(* C05 / C06: completeness of the traversal model when sin(theta)/lambda does not decrease along the three loop directions
   inside the segment's cone, and a decidable sufficient condition on the metric (all the Gram products of the directions
   non-negative).  The condition is sufficient, not necessary; in cells where it fails the unchanged code can miss reflections (known finding F6, found by the search). *)
From Coq Require Import ZArith List String Lia.
From XV Require Import HklModel Traverse Tab_segm P05.
Import ListNotations.
Open Scope Z_scope.

Definition bil (G : metricZ) (u v : hkl) : Z :=
  let '(x, y, z) := u in let '(x', y', z') := v in
  g11 G * x * x' + g22 G * y * y' + g33 G * z * z' + g12 G * (x * y' + y * x') + g13 G * (x * z' + z * x') + g23 G * (y * z' + z * y').

Lemma q_line G y d k : qform G (hadd y (hscale k d)) = qform G y + 2 * k * bil G y d + k * k * qform G d.
Proof. destruct y as [[? ?] ?], d as [[? ?] ?]. unfold qform, bil, hadd, hscale. ring. Qed.
Lemma bil_hadd G u v d : bil G (hadd u v) d = bil G u d + bil G v d.
Proof. destruct u as [[? ?] ?], v as [[? ?] ?], d as [[? ?] ?]. unfold bil, hadd. ring. Qed.
Lemma bil_hscale G k u d : bil G (hscale k u) d = k * bil G u d.
Proof. destruct u as [[? ?] ?], d as [[? ?] ?]. unfold bil, hscale. ring. Qed.

Definition gram_ok (G : metricZ) (seg : list (list Z)) : bool :=
  let c := vec3 (nth 0 seg []) in let d1 := vec3 (nth 1 seg []) in let d2 := vec3 (nth 2 seg []) in let d3 := vec3 (nth 3 seg []) in
  (0 <=? 2 * bil G c d3 + qform G d3) && (0 <=? 2 * bil G c d2 + qform G d2) && (0 <=? 2 * bil G c d1 + qform G d1)
  && (0 <=? bil G d3 d2) && (0 <=? bil G d3 d1) && (0 <=? bil G d2 d1)
  && (0 <=? qform G d1) && (0 <=? qform G d2) && (0 <=? qform G d3).

Lemma gram_ok_spec G seg :
  let c := vec3 (nth 0 seg []) in let d1 := vec3 (nth 1 seg []) in let d2 := vec3 (nth 2 seg []) in let d3 := vec3 (nth 3 seg []) in
  gram_ok G seg = true <->
  (0 <= 2 * bil G c d3 + qform G d3 /\ 0 <= 2 * bil G c d2 + qform G d2 /\ 0 <= 2 * bil G c d1 + qform G d1) /\
  (0 <= bil G d3 d2 /\ 0 <= bil G d3 d1 /\ 0 <= bil G d2 d1) /\ (0 <= qform G d1 /\ 0 <= qform G d2 /\ 0 <= qform G d3).
Proof.
  unfold gram_ok; cbv zeta. split.
  - intros H. repeat (apply andb_prop in H; destruct H as [H ?]). repeat split; apply Z.leb_le; assumption.
  - intros ((? & ? & ?) & (? & ? & ?) & (? & ? & ?)). repeat (apply andb_true_intro; split); apply Z.leb_le; assumption.
Qed.

(* q on the cone as a polynomial in the coordinates: the coefficients are the nine quantities gram_ok tests, each on a monomial that
   does not decrease as a, k, m >= 0 grow *)
Lemma q_lin G c d1 d2 d3 a k m : qform G (lin c d1 d2 d3 (a, k, m)) = qform G c
  + ((2 * bil G c d3 + qform G d3) * m + (2 * bil G c d2 + qform G d2) * k + (2 * bil G c d1 + qform G d1) * a)
  + (bil G d3 d2 * (2 * (k * m)) + bil G d3 d1 * (2 * (a * m)) + bil G d2 d1 * (2 * (a * k)))
  + (qform G d1 * (a * (a - 1)) + qform G d2 * (k * (k - 1)) + qform G d3 * (m * (m - 1))).
Proof. unfold lin. rewrite !q_line, !bil_hadd, !bil_hscale. ring. Qed.

Lemma tri_mono a a' : 0 <= a <= a' -> a * (a - 1) <= a' * (a' - 1).
Proof.
  intros H. destruct (Z.eq_dec a a') as [->|N]; [lia|].
  assert (0 <= (a' - a) * (a' + a - 1)) by (apply Z.mul_nonneg_nonneg; lia). lia.
Qed.

Theorem cone_mono G seg a k m a' k' m' : gram_ok G seg = true -> 0 <= a <= a' -> 0 <= k <= k' -> 0 <= m <= m' ->
  let p := lin (vec3 (nth 0 seg [])) (vec3 (nth 1 seg [])) (vec3 (nth 2 seg [])) (vec3 (nth 3 seg [])) in
  qform G (p (a, k, m)) <= qform G (p (a', k', m')).
Proof.
  intros HG Ha Hk Hm. apply gram_ok_spec in HG. destruct HG as ((C3 & C2 & C1) & (G32 & G31 & G21) & (Q1 & Q2 & Q3)). cbv zeta.
  rewrite !q_lin. repeat apply Z.add_le_mono; try apply Z.le_refl; (apply Z.mul_le_mono_nonneg_l; [assumption|]).
  (* term by term: the linear, the mixed and the square monomials *)
  1-3: lia.
  1-3: apply Z.mul_le_mono_nonneg_l; [lia | apply Z.mul_le_mono_nonneg; lia].
  all: apply tri_mono; assumption.
Qed.

Section Final.
Variable G : metricZ.
Variables Tmin Tmax Tterm : Z.
Variable allowed : hkl -> bool.
Hypothesis HT : Tmax <= Tterm.

Theorem segment_complete fuel seg l : segment G Tmin Tmax Tterm allowed fuel seg = Some l -> gram_ok G seg = true ->
  forall x, in_cone seg x -> keep G Tmin Tmax allowed x = true -> In x l.
Proof.
  intros H HG x (a & k & m & Ha & Hk & Hm & ->) K. apply (proj1 (segment_exact G Tmin Tmax Tterm allowed _ _ _ H)). split; [exact K|].
  apply keep_spec in K. destruct K as [_ [_ Kq]].
  (* the points of the staircase up to x have coordinates below those of x *)
  assert (B : forall a' k' m', 0 <= a' <= a -> 0 <= k' <= k -> 0 <= m' <= m ->
              qform G (lin (vec3 (nth 0 seg [])) (vec3 (nth 1 seg [])) (vec3 (nth 2 seg [])) (vec3 (nth 3 seg [])) (a', k', m')) <= Tterm).
  { intros a' k' m' Ha' Hk' Hm'. exact (Z.le_trans _ _ _ (cone_mono G seg a' k' m' a k m HG Ha' Hk' Hm') (Z.le_trans _ _ _ Kq HT)). }
  exists (Z.to_nat m, Z.to_nat k, Z.to_nat a). unfold pt. rewrite !Z2Nat.id by assumption. split; [|reflexivity].
  split; [|split]; intros i Hi; unfold step; rewrite ?Z2Nat.id by assumption.
  - specialize (B 0 0 (Z.of_nat (S i))). unfold lin in B. rewrite !hadd_0_r in B. apply B; lia.
  - specialize (B 0 (Z.of_nat (S i)) m). unfold lin in B. rewrite hadd_0_r in B. apply B; lia.
  - apply (B (Z.of_nat (S i)) k m); lia.
Qed.

Theorem all_segments_complete fuel segs l : all_segments G Tmin Tmax Tterm allowed fuel segs = Some l ->
  (forall seg, In seg segs -> gram_ok G seg = true) ->
  forall x seg, In seg segs -> in_cone seg x -> keep G Tmin Tmax allowed x = true -> In x l.
Proof.
  intros H HG x seg Hs Hc K. destruct (all_segments_flat H) as (f & -> & F).
  apply in_flat_map. exists seg. split; [exact Hs | exact (segment_complete fuel seg _ (F seg Hs) (HG seg Hs) x Hc K)].
Qed.
End Final.

Definition orthogonal (G : metricZ) : Prop := 0 < g11 G /\ 0 < g22 G /\ 0 < g33 G /\ g12 G = 0 /\ g13 G = 0 /\ g23 G = 0.
Definition tetragonal (G : metricZ) : Prop := orthogonal G /\ g22 G = g11 G.
Definition cubic (G : metricZ) : Prop := orthogonal G /\ g22 G = g11 G /\ g33 G = g11 G.
(* hexagonal axes: a* = b*, gamma* = 60 degrees, so a*.b* = a*^2 / 2 *)
Definition hexagonal (G : metricZ) : Prop := 0 < g11 G /\ g22 G = g11 G /\ 0 < g33 G /\ 2 * g12 G = g11 G /\ g13 G = 0 /\ g23 G = 0.

Definition segs_of (laue choice : string) : list (list (list Z)) :=
  match lookup_segm segm_laue laue choice with Some l => l | None => [] end.

(* gram_ok is a set of inequalities linear in the metric, so it passes to non-negative combinations; each of the four metric
   classes is the set of non-negative combinations of at most three generators, on which a segment table can be tested by evaluation.
   (Invariance of qform under a matrix passes to combinations too: P05_qinv.) *)
Definition maxpy (a : Z) (A B : metricZ) : metricZ :=
  mkMet (a * g11 A + g11 B) (a * g22 A + g22 B) (a * g33 A + g33 B) (a * g12 A + g12 B) (a * g13 A + g13 B) (a * g23 A + g23 B).
Definition mzero : metricZ := mkMet 0 0 0 0 0 0.
Fixpoint mcomb (cs : list Z) (Es : list metricZ) : metricZ :=
  match cs, Es with a :: cs', E :: Es' => maxpy a E (mcomb cs' Es') | _, _ => mzero end.

Lemma comb_closed (P : metricZ -> Prop) : P mzero -> (forall a A B, 0 <= a -> P A -> P B -> P (maxpy a A B)) ->
  forall cs Es, Forall (Z.le 0) cs -> (forall E, In E Es -> P E) -> P (mcomb cs Es).
Proof.
  intros P0 Pax. induction cs as [|a cs IH]; intros [|E Es] Hc HE; try exact P0. inversion Hc; subst.
  apply Pax; [assumption | apply HE; left; reflexivity | apply IH; [assumption | intros E' H'; apply HE; right; exact H']].
Qed.

Lemma qform_maxpy a A B h : qform (maxpy a A B) h = a * qform A h + qform B h.
Proof. destruct h as [[x y] z]. unfold qform, maxpy; cbn [g11 g22 g33 g12 g13 g23]. ring. Qed.
Lemma bil_maxpy a A B u v : bil (maxpy a A B) u v = a * bil A u v + bil B u v.
Proof. destruct u as [[x y] z], v as [[x' y'] z']. unfold bil, maxpy; cbn [g11 g22 g33 g12 g13 g23]. ring. Qed.
Lemma slope_maxpy a A B u v : 2 * bil (maxpy a A B) u v + qform (maxpy a A B) v = a * (2 * bil A u v + qform A v) + (2 * bil B u v + qform B v).
Proof. rewrite bil_maxpy, qform_maxpy. ring. Qed.
Lemma gram_ok_maxpy seg a A B : 0 <= a -> gram_ok A seg = true -> gram_ok B seg = true -> gram_ok (maxpy a A B) seg = true.
Proof.
  rewrite !gram_ok_spec. cbv zeta. rewrite !slope_maxpy, !bil_maxpy, !qform_maxpy. intros Ha HA HB.
  assert (X : forall x y, 0 <= x -> 0 <= y -> 0 <= a * x + y) by (intros x y Hx Hy; pose proof (Z.mul_nonneg_nonneg a x Ha Hx); lia).
  decompose [and] HA. decompose [and] HB. repeat split; apply X; assumption.
Qed.

Inductive mclass := Orth | Tetr | Cub | Hex.
Definition in_class (c : mclass) (G : metricZ) : Prop :=
  match c with Orth => orthogonal G | Tetr => tetragonal G | Cub => cubic G | Hex => hexagonal G end.
Definition gens (c : mclass) : list metricZ :=
  match c with
  | Orth => [mkMet 1 0 0 0 0 0; mkMet 0 1 0 0 0 0; mkMet 0 0 1 0 0 0]
  | Tetr => [mkMet 1 1 0 0 0 0; mkMet 0 0 1 0 0 0]
  | Cub => [mkMet 1 1 1 0 0 0]
  | Hex => [mkMet 2 2 0 1 0 0; mkMet 0 0 1 0 0 0]
  end.
Definition coefs (c : mclass) (G : metricZ) : list Z :=
  match c with Orth => [g11 G; g22 G; g33 G] | Tetr => [g11 G; g33 G] | Cub => [g11 G] | Hex => [g12 G; g33 G] end.
Lemma class_comb c G : in_class c G -> Forall (Z.le 0) (coefs c G) /\ G = mcomb (coefs c G) (gens c).
Proof.
  destruct G as [a b d p q r].
  destruct c; unfold in_class, cubic, tetragonal, hexagonal, orthogonal; cbn [coefs gens mcomb]; unfold maxpy, mzero;
    cbn [g11 g22 g33 g12 g13 g23]; intros H; (split; [repeat constructor; lia | f_equal; lia]).
Qed.

Lemma class_closed (P : metricZ -> Prop) c G : in_class c G -> P mzero -> (forall a A B, 0 <= a -> P A -> P B -> P (maxpy a A B)) ->
  (forall E, In E (gens c) -> P E) -> P G.
Proof. intros HG P0 Pax HE. destruct (class_comb c G HG) as [Hpos E]. rewrite E. exact (comb_closed P P0 Pax _ _ Hpos HE). Qed.

(* the lookup sees the choice only as rhombohedral or not *)
Lemma segs_of_choice laue c1 c2 : String.eqb c1 "rhombohedral" = String.eqb c2 "rhombohedral" -> segs_of laue c1 = segs_of laue c2.
Proof.
  intros E. unfold segs_of, lookup_segm. rewrite (filter_ext (seg_matches laue c1) (seg_matches laue c2)); [reflexivity|].
  intros [[l rh] x]. unfold seg_matches. rewrite E. reflexivity.
Qed.

(* where gram_ok fails: an oblique monoclinic reciprocal metric (beta* <> 90) *)
Example mono_fails_oblique : exists G seg, In seg (segs_of "2/m" "standard") /\ gram_ok G seg = false.
Proof. exists (mkMet 7 11 13 0 3 0), [[-1; 0; 1]; [-1; 0; 0]; [0; 1; 0]; [0; 0; 1]]. split; vm_compute; [right; left; reflexivity | reflexivity]. Qed.

Local Open Scope string_scope.
Example segs_present : forallb (fun p => negb (Nat.eqb (List.length (segs_of (fst p) (snd p))) 0))
  [("mmm", "standard"); ("4/mmm", "standard"); ("4/m", "standard"); ("m-3m", "standard"); ("m-3", "standard"); ("6/mmm", "standard");
   ("6/m", "standard"); ("-3m1", "standard"); ("-31m", "standard"); ("-3", "hexagonal"); ("2/m", "standard"); ("-1", "standard")]%string = true.
Proof. vm_compute. reflexivity. Qed.

Definition monotone_system (laue choice : string) (G : metricZ) : Prop :=
  (laue = "mmm" /\ orthogonal G) \/ ((laue = "4/mmm" \/ laue = "4/m") /\ tetragonal G) \/ ((laue = "m-3m" \/ laue = "m-3") /\ cubic G)
  \/ ((laue = "6/mmm" \/ laue = "6/m" \/ laue = "-3m1" \/ laue = "-31m") /\ hexagonal G)
  \/ (laue = "-3" /\ choice = "hexagonal" /\ hexagonal G) \/ ((laue = "2/m" \/ laue = "-1") /\ orthogonal G).

Definition mono_rows : list (string * mclass) :=
  [("mmm", Orth); ("4/mmm", Tetr); ("4/m", Tetr); ("m-3m", Cub); ("m-3", Cub); ("6/mmm", Hex); ("6/m", Hex); ("-3m1", Hex); ("-31m", Hex);
   ("-3", Hex); ("2/m", Orth); ("-1", Orth)].
Lemma monotone_system_row laue choice G : monotone_system laue choice G -> exists c, In (laue, c) mono_rows /\ in_class c G.
Proof.
  intros [[-> HG]|[[[-> | ->] HG]|[[[-> | ->] HG]|[[[-> |[-> |[-> | ->]]] HG]|[[-> [_ HG]]|[[-> | ->] HG]]]]]];
    [exists Orth | exists Tetr | exists Tetr | exists Cub | exists Cub | exists Hex | exists Hex | exists Hex | exists Hex | exists Hex
     | exists Orth | exists Orth]; (split; [cbn [mono_rows In]; tauto | exact HG]).
Qed.

Lemma gram_rows : forallb (fun row => forallb (fun seg => forallb (fun E => gram_ok E seg) (gens (snd row))) (segs_of (fst row) "standard")) mono_rows = true.
Proof. vm_compute. reflexivity. Qed.

Lemma monotone_system_ok laue choice G : (choice = "standard" \/ choice = "hexagonal")%string -> monotone_system laue choice G ->
  forall seg, In seg (segs_of laue choice) -> gram_ok G seg = true.
Proof.
  intros Hc H seg Hin. destruct (monotone_system_row laue choice G H) as (c & Hrow & HG).
  rewrite (segs_of_choice laue choice "standard") in Hin by (destruct Hc as [-> | ->]; reflexivity).
  pose proof (proj1 (forallb_forall _ _) gram_rows _ Hrow) as F. cbn beta in F.
  rewrite forallb_forall in F. specialize (F seg Hin). rewrite forallb_forall in F.
  exact (class_closed (fun M => gram_ok M seg = true) c G HG eq_refl (gram_ok_maxpy seg) F).
Qed.

Theorem traversal_complete_systems laue choice G Tmin Tmax Tterm allowed fuel l :
  (choice = "standard" \/ choice = "hexagonal")%string -> monotone_system laue choice G -> Tmax <= Tterm ->
  all_segments G Tmin Tmax Tterm allowed fuel (segs_of laue choice) = Some l ->
  forall x seg, In seg (segs_of laue choice) -> in_cone seg x -> allowed x = true -> Tmin < qform G x <= Tmax -> In x l.
Proof.
  intros Hc HS HT H x seg Hin Hcone Ha [Hlo Hhi].
  apply (all_segments_complete G Tmin Tmax Tterm allowed HT fuel _ l H (monotone_system_ok laue choice G Hc HS) x seg Hin Hcone).
  apply keep_spec. auto.
Qed.
