(* C10: detector pixel lies on the scattered ray (generated definitions of xfab.detector).  det_coor and det_coor2 are one function,
   det_pixel, of the ray direction; the pixel lies on the ray for every direction that meets the detector plane (pixel_on_ray). *)
From Coq Require Import Reals.
From XV Require Import Mat3 Gen_detector.
Open Scope R_scope.

Definition ray_dir (tth eta : R) : V3 := mkV3 (cos tth) (- sin tth * sin eta) (sin tth * cos eta).

(* the code's ray parameter t *)
Definition ray_t (Rt : M3) (L tx ty tz : R) (v : V3) : R :=
  (m00 Rt * L - (m00 Rt * tx + m10 Rt * ty + m20 Rt * tz)) / (m00 Rt * vx v + m10 Rt * vy v + m20 Rt * vz v).

(* what det_coor and det_coor2 compute from a ray direction v: the point grain + t v seen from the detector origin (L,0,0), turned
   into detector coordinates q; the pixel is (q_y, q_z) in units of the pixel size *)
Definition det_pixel (v : V3) (L py pz y0 z0 : R) (Rt : M3) (tx ty tz : R) : V2 :=
  let t := ray_t Rt L tx ty tz v in
  let q := mvmul (mtrans Rt) (mkV3 (tx - L + t * vx v) (ty + t * vy v) (tz + t * vz v)) in
  mkV2 (vy q / py + y0) (vz q / pz + z0).

Lemma det_coor_def Gt costth wl L py pz y0 z0 Rt tx ty tz :
  detector_det_coor Gt costth wl L py pz y0 z0 Rt tx ty tz
  = det_pixel (mkV3 costth (wl / (2 * PI) * vy Gt) (wl / (2 * PI) * vz Gt)) L py pz y0 z0 Rt tx ty tz.
Proof. reflexivity. Qed.
Lemma det_coor2_def tth eta L py pz y0 z0 Rt tx ty tz :
  detector_det_coor2 tth eta L py pz y0 z0 Rt tx ty tz = det_pixel (ray_dir tth eta) L py pz y0 z0 Rt tx ty tz.
Proof. reflexivity. Qed.

Lemma coor_eq_coor2 Gt costth wl tth eta L py pz y0 z0 Rt tx ty tz :
  costth = cos tth -> wl / (2 * PI) * vy Gt = - sin tth * sin eta -> wl / (2 * PI) * vz Gt = sin tth * cos eta ->
  detector_det_coor Gt costth wl L py pz y0 z0 Rt tx ty tz = detector_det_coor2 tth eta L py pz y0 z0 Rt tx ty tz.
Proof. intros E0 E1 E2. rewrite det_coor_def, det_coor2_def, E0, E1, E2. reflexivity. Qed.

Lemma pixel_on_ray v L py pz y0 z0 Rt tx ty tz :
  is_orth Rt -> py <> 0 -> pz <> 0 -> m00 Rt * vx v + m10 Rt * vy v + m20 Rt * vz v <> 0 ->
  let p := det_pixel v L py pz y0 z0 Rt tx ty tz in
  detector_detector_to_lab (p0 p) (p1 p) L py pz y0 z0 Rt = vadd (mkV3 tx ty tz) (vscale (ray_t Rt L tx ty tz v) v).
Proof.
  intros HR Hy Hz Hd p. subst p. unfold det_pixel; cbv zeta.
  set (t := ray_t Rt L tx ty tz v). set (d := mkV3 (tx - L + t * vx v) (ty + t * vy v) (tz + t * vz v)).
  set (q := mvmul (mtrans Rt) d).
  (* the ray parameter makes the first coordinate of q vanish; detector_to_lab undoes the pixel units and applies R_tilt again:
     R R' = I gives the point back *)
  assert (Q0 : vx q = 0) by (unfold q, d, t, ray_t; munfold; field; exact Hd).
  unfold detector_detector_to_lab; cbv zeta; cbn [p0 p1].
  replace (py * (vy q / py + y0 - y0)) with (vy q) by (field; exact Hy).
  replace (pz * (vz q / pz + z0 - z0)) with (vz q) by (field; exact Hz).
  transitivity (vadd (mkV3 L 0 0) (mvmul Rt q)).
  - unfold vadd, mvmul; cbn [vx vy vz]. rewrite Q0. f_equal; ring.
  - unfold q. rewrite <- mvmul_mmul, (mmul_I_comm _ _ HR), mvmul_I. unfold vadd, vscale, d; cbn [vx vy vz]. f_equal; ring.
Qed.

Lemma on_ray tth eta L py pz y0 z0 Rt tx ty tz :
  is_rot Rt -> py <> 0 -> pz <> 0 ->
  let v := ray_dir tth eta in
  m00 Rt * vx v + m10 Rt * vy v + m20 Rt * vz v <> 0 ->
  let p := detector_det_coor2 tth eta L py pz y0 z0 Rt tx ty tz in
  detector_detector_to_lab (p0 p) (p1 p) L py pz y0 z0 Rt
  = vadd (mkV3 tx ty tz) (vscale (ray_t Rt L tx ty tz v) v).
Proof. intros [HO _] Hy Hz v. apply pixel_on_ray; assumption. Qed.

Lemma forward Rt L tx ty tz v :
  0 < m00 Rt * L - (m00 Rt * tx + m10 Rt * ty + m20 Rt * tz) ->
  0 < m00 Rt * vx v + m10 Rt * vy v + m20 Rt * vz v -> 0 < ray_t Rt L tx ty tz v.
Proof. intros H1 H2. unfold ray_t. apply Rdiv_lt_0_compat; assumption. Qed.

(* with zero tilt and the grain at the origin the familiar L tan(2 theta) geometry comes out *)
Lemma untilted tth eta L py pz y0 z0 : cos tth <> 0 -> py <> 0 -> pz <> 0 ->
  detector_det_coor2 tth eta L py pz y0 z0 mI 0 0 0 =
  mkV2 (L * (- sin tth * sin eta) / cos tth / py + y0) (L * (sin tth * cos eta) / cos tth / pz + z0).
Proof.
  intros H Hy Hz. unfold detector_det_coor2, mI; cbv zeta; cbn [m00 m01 m02 m10 m11 m12 m20 m21 m22].
  f_equal; field; repeat split; assumption.
Qed.
