(* C19: save then load gives back the same name -> value mapping *)
From Coq Require Import ZArith List Bool Ascii String.
From XV Require Import Str Params P19.
Import ListNotations.
Open Scope string_scope.

Fixpoint no_sp (s : string) : bool := match s with EmptyString => true | String c r => negb (Ascii.eqb c " "%char) && no_sp r end.

Lemma no_sp_app a b : no_sp (a ++ b) = no_sp a && no_sp b.
Proof. induction a as [|c a IH]; cbn; [reflexivity|]. rewrite IH, andb_assoc. reflexivity. Qed.

Section File.
Variable F : Type.
Variable print_f : F -> string.
Variable print_i : Z -> string.
Variable parse_f : string -> option F.
Variable parse_i : string -> option Z.
Notation value := (value F).
Notation dict := (dict F).
Notation coerce := (coerce F parse_f parse_i).
Notation load := (load F parse_f parse_i).
Notation save_lines := (save_lines F print_f print_i).
Notation print_v := (print_v F print_f print_i).

(* what is assumed of Python's number formatting / parsing *)
Hypothesis int_roundtrip : forall z, parse_i (print_i z ++ nl) = Some z /\ parse_f (print_i z ++ nl) <> None /\ no_sp (print_i z) = true.
Hypothesis float_roundtrip : forall f, parse_f (print_f f ++ nl) = Some f /\ parse_i (print_f f ++ nl) = None /\ no_sp (print_f f) = true.

Definition good_value (v : value) : Prop :=
  match v with
  | VStr _ s => parse_f (s ++ nl) = None /\ strip (s ++ nl) = s /\ no_sp s = true
  | _ => True
  end.

Lemma split_sp_tok a rest cur : no_sp a = true -> split_sp (a ++ rest) cur = split_sp rest (cur ++ a).
Proof.
  revert cur; induction a as [|c a IH]; intros cur H; cbn.
  - rewrite app_empty_r. reflexivity.
  - cbn in H. apply andb_prop in H. destruct H as [H1 H2]. apply negb_true_iff in H1. rewrite H1.
    rewrite IH by exact H2. rewrite app_assoc'. reflexivity.
Qed.
Lemma split_sp_last a cur : no_sp a = true -> split_sp a cur = [cur ++ a].
Proof. intros H. rewrite <- (app_empty_r a) at 1. rewrite split_sp_tok by exact H. reflexivity. Qed.
Lemma split_line k v : no_sp k = true -> no_sp v = true -> split_sp (k ++ " " ++ v) "" = [k; v].
Proof.
  intros Hk Hv. rewrite split_sp_tok by exact Hk. cbn. rewrite split_sp_last by exact Hv. reflexivity.
Qed.

Lemma nl_no_sp : no_sp nl = true.
Proof. reflexivity. Qed.

Lemma print_no_sp v : good_value v -> no_sp (print_v v ++ nl) = true.
Proof.
  intros G. rewrite no_sp_app, nl_no_sp, andb_true_r. destruct v as [z|f|s]; cbn.
  - apply int_roundtrip. - apply float_roundtrip. - apply G.
Qed.

Lemma coerce_print v : good_value v -> coerce (VStr F (print_v v ++ nl)) = v.
Proof.
  intros G. destruct v as [z|f|s]; cbn [Params.coerce Params.print_v].
  - destruct (int_roundtrip z) as (HI & HF & _). destruct (parse_f (print_i z ++ nl)) as [g|]; [|congruence]. rewrite HI. reflexivity.
  - destruct (float_roundtrip f) as (HF & HI & _). rewrite HF, HI. reflexivity.
  - destruct G as (HF & HS & _). rewrite HF, HS. reflexivity.
Qed.

Definition hk (kv : string * value) : string := hyphen_to_underscore (fst kv).

Lemma load_line_save acc k v : no_sp k = true -> good_value v ->
  load_line F acc (k ++ " " ++ print_v v ++ nl) = upd F acc (hyphen_to_underscore k) (VStr F (print_v v ++ nl)).
Proof. intros Hk G. unfold load_line. rewrite split_line by (try exact Hk; apply print_no_sp; exact G). reflexivity. Qed.

Lemma save_lines_cons k v (r : dict) : save_lines ((k, v) :: r) = (k ++ " " ++ print_v v ++ nl) :: save_lines r.
Proof. reflexivity. Qed.

(* loading the saved lines on top of acc: a name that is not a saved key keeps what acc had, a saved key holds its printed value *)
Lemma load_saved (d : dict) : Forall (fun kv => no_sp (fst kv) = true /\ good_value (snd kv)) d -> forall acc,
  (forall x, ~ In x (map hk d) -> lookup F (fold_left (load_line F) (save_lines d) acc) x = lookup F acc x) /\
  (NoDup (map hk d) -> forall k v, In (k, v) d ->
     lookup F (fold_left (load_line F) (save_lines d) acc) (hyphen_to_underscore k) = Some (VStr F (print_v v ++ nl))).
Proof.
  induction 1 as [|[k0 v0] r [Hk G] _ IH]; intros acc; [split; [reflexivity | intros _ k v []]|]. cbn in Hk, G.
  rewrite save_lines_cons. cbn [fold_left]. rewrite load_line_save by assumption.
  destruct (IH (upd F acc (hyphen_to_underscore k0) (VStr F (print_v v0 ++ nl)))) as [IH1 IH2]. split.
  - intros x NI. rewrite IH1, lookup_upd by (intro H; apply NI; right; exact H).
    destruct (String.eqb (hyphen_to_underscore k0) x) eqn:E; [|reflexivity].
    apply String.eqb_eq in E. exfalso. apply NI. left. exact E.
  - intros ND k v HI. inversion ND as [|? ? NI NR]; subst. destruct HI as [E|HI]; [|apply IH2; assumption].
    injection E as -> ->. rewrite IH1, lookup_upd, String.eqb_refl by exact NI. reflexivity.
Qed.

Theorem save_load (d : dict) : Forall (fun kv => no_sp (fst kv) = true /\ good_value (snd kv)) d -> NoDup (map hk d) ->
  forall k v, In (k, v) d -> lookup F (load [] (save_lines d)) (hyphen_to_underscore k) = Some v.
Proof.
  intros FA ND k v HI. unfold Params.load. rewrite lookup_map, (proj2 (load_saved d FA []) ND k v HI). cbn [option_map]. f_equal.
  apply coerce_print. rewrite Forall_forall in FA. apply (FA (k, v) HI).
Qed.

(* nothing is invented: a name that is not the image of a saved key is absent after loading into an empty object *)
Theorem load_nothing_else (d : dict) x : Forall (fun kv => no_sp (fst kv) = true /\ good_value (snd kv)) d -> ~ In x (map hk d) ->
  lookup F (load [] (save_lines d)) x = None.
Proof. intros FA NI. unfold Params.load. rewrite lookup_map, (proj1 (load_saved d FA []) x NI). reflexivity. Qed.
End File.
