(* C04: what the group check means.  An operation list that group_ok (lib/SGroup.v) accepts is a group modulo lattice translations
   (member_closed, member_inverse, member_id, member_nodup); hence left_ok (C07/C08) and the matrix group of the Laue class (laue_group).
   The checker compares CODES of products, and op_code is injective only on rotations with entries in {-1,0,1}; that a product of
   two members is again small comes from the metric conjuncts of the same checker: every rotation is one of the first nuniq, these
   leave the forms of the metric basis invariant, so do products (pres_all_mul), and some combination of the forms is positive
   definite and forces small entries (isometry_small, pres_all_small). *)
From Coq Require Import ZArith Bool Lia MSetPositive SetoidList String.
From XV Require Import SGroup SGLeft HklModel SGFacts.
Import ListNotations.
Open Scope Z_scope.

Definition in12 (x : Z) : Prop := 0 <= x < 12.
Definition wf_op (p : op) : Prop :=
  mat_small (fst p) = true /\ in12 (fst (fst (snd p))) /\ in12 (snd (fst (snd p))) /\ in12 (snd (snd p)).

Lemma small_spec x : small x = true <-> -1 <= x <= 1.
Proof. unfold small. rewrite andb_true_iff, !Z.leb_le. tauto. Qed.

Lemma mat_small_spec A : mat_small A = true <->
  let '(a, b, c, d, e, f, g, h, i) := A in
  -1 <= a <= 1 /\ -1 <= b <= 1 /\ -1 <= c <= 1 /\ -1 <= d <= 1 /\ -1 <= e <= 1 /\ -1 <= f <= 1 /\
  -1 <= g <= 1 /\ -1 <= h <= 1 /\ -1 <= i <= 1.
Proof.
  destruct A as [[[[[[[[a b] c] d] e] f] g] h] i]. unfold mat_small.
  rewrite !andb_true_iff, !small_spec. tauto.
Qed.

Lemma snap12_range m k : snap12 m = Some k -> in12 k.
Proof.
  unfold snap12. destruct (_ <? 120); [|discriminate]. intros E. injection E as <-.
  apply Z.mod_pos_bound. lia.
Qed.

Lemma ops_of_wf rots trans ops : ops_of rots trans = Some ops -> Forall wf_op ops.
Proof.
  revert rots trans ops. refine (ops_of_ind _ _ _); [constructor|]. intros r t R v rs ts l _ Ev ER _ IH. constructor; [|exact IH].
  destruct (snap3_inv t v Ev) as (a & b & c & _ & Ea & Eb & Ec).
  unfold wf_op; cbn [fst snd]. split; [exact ER|]. split; [|split]; eapply snap12_range; eassumption.
Qed.

Lemma digit_inj b a a' r r' : 0 <= a < b -> 0 <= a' < b -> a + b * r = a' + b * r' -> a = a' /\ r = r'.
Proof. intros. assert (r = r') by nia. lia. Qed.

Lemma mat_code_range A : mat_small A = true -> 0 <= mat_code A < 19683.
Proof.
  rewrite mat_small_spec. destruct A as [[[[[[[[a b] c] d] e] f] g] h] i]. unfold mat_code. lia.
Qed.

Lemma mat_code_inj A B : mat_small A = true -> mat_small B = true -> mat_code A = mat_code B -> A = B.
Proof.
  rewrite !mat_small_spec.
  destruct A as [[[[[[[[a b] c] d] e] f] g] h] i], B as [[[[[[[[a' b'] c'] d'] e'] f'] g'] h'] i'].
  unfold mat_code. intros HA HB E.
  do 8 (apply digit_inj in E; [destruct E as [? E] | lia | lia]).
  repeat f_equal; lia.
Qed.

Lemma op_code_val p : wf_op p ->
  Zpos (op_code p) = 1 + mat_code (fst p) + 19683 * (fst (fst (snd p)) + 12 * (snd (fst (snd p)) + 12 * snd (snd p))).
Proof.
  destruct p as [R [[x y] z]]. unfold wf_op, in12; cbn [fst snd]. intros (HR & Hx & Hy & Hz).
  apply mat_code_range in HR. unfold op_code. rewrite Z2Pos.id; lia.
Qed.

Lemma op_code_inj p q : wf_op p -> wf_op q -> op_code p = op_code q -> p = q.
Proof.
  intros Hp Hq E. assert (E' : Zpos (op_code p) = Zpos (op_code q)) by (rewrite E; reflexivity).
  rewrite (op_code_val p Hp), (op_code_val q Hq) in E'.
  destruct p as [R [[x y] z]], q as [R' [[x' y'] z']]. unfold wf_op, in12 in *; cbn [fst snd] in *.
  destruct Hp as (HR & Hx & Hy & Hz), Hq as (HR' & Hx' & Hy' & Hz').
  pose proof (mat_code_range R HR). pose proof (mat_code_range R' HR').
  assert (EM : mat_code R = mat_code R') by lia. apply mat_code_inj in EM; [|assumption|assumption].
  repeat f_equal; [exact EM | lia ..].
Qed.

(* the code is NOT injective when one side has an entry outside {-1,0,1}: for the small unimodular matrices
   A = (-1,-1,-1, -1,-1,0, -1,0,-1), B = (-1,1,0, 1,-1,-1, 0,1,0), C = (0,-1,1, 0,0,1, 1,1,-1) the product A B has an entry -2
   and mat_code (mmulZ A B) = mat_code C although mmulZ A B <> C *)

Lemma fold_add_mem {A} (f : A -> positive) l s c :
  PositiveSet.mem c (fold_left (fun s p => PositiveSet.add (f p) s) l s) = true <->
  PositiveSet.mem c s = true \/ In c (map f l).
Proof.
  revert s. induction l as [|a r IH]; intros s; cbn [fold_left map In]; [tauto|].
  rewrite IH. change (PositiveSet.mem c (PositiveSet.add (f a) s) = true) with (PositiveSet.In c (PositiveSet.add (f a) s)).
  rewrite PositiveSet.add_spec. unfold PositiveSet.In. intuition congruence.
Qed.

Lemma set_of_mem ops c : PositiveSet.mem c (set_of ops) = true <-> In c (map op_code ops).
Proof. unfold set_of. rewrite fold_add_mem. cbn. intuition discriminate. Qed.

Lemma NoDupA_eq_NoDup {A} (l : list A) : NoDupA eq l -> NoDup l.
Proof.
  induction 1 as [|x l Hx _ IH]; constructor; [|exact IH].
  intros Hin. apply Hx. apply InA_alt. exists x. split; [reflexivity | exact Hin].
Qed.

Lemma fold_card_nodup {A} (f : A -> positive) (l : list A) :
  PositiveSet.cardinal (fold_left (fun s p => PositiveSet.add (f p) s) l PositiveSet.empty) = List.length l -> NoDup (map f l).
Proof.
  set (S := fold_left _ l _). intros Hc.
  apply (NoDup_incl_NoDup (l := PositiveSet.elements S)).
  - apply NoDupA_eq_NoDup. apply PositiveSet.elements_spec2w.
  - rewrite map_length, <- Hc, PositiveSet.cardinal_spec. apply Nat.le_refl.
  - intros c Hc'. assert (Hm : PositiveSet.In c S).
    { apply PositiveSet.elements_spec1. apply InA_alt. exists c. split; [reflexivity | exact Hc']. }
    unfold PositiveSet.In, S in Hm. rewrite fold_add_mem in Hm. destruct Hm as [Hm|Hm]; [discriminate Hm | exact Hm].
Qed.

(* v' G v.  An operation R that preserves G (R' G R = G) leaves this form invariant; invariance is what is closed under
   products and what bounds the entries. *)
Definition quadZ (G : mat) (v : Z * Z * Z) : Z := dot3z v (mvZ G v).

Lemma quadZ_conj R G v : quadZ (mmulZ (mtransZ R) (mmulZ G R)) v = quadZ G (mvZ R v).
Proof. unfold quadZ. rewrite !mvZ_mmulZ, dot3z_mvZ, vmZ_mtransZ. reflexivity. Qed.
Lemma preserves_quadZ R G : preserves R G = true -> forall v, quadZ G (mvZ R v) = quadZ G v.
Proof. unfold preserves. rewrite mat_eqb_spec. intros E v. rewrite <- quadZ_conj, E. reflexivity. Qed.

Definition pres_all (c ch : string) (R : mat) : Prop :=
  forall G v, In G (metric_basis c ch) -> quadZ G (mvZ R v) = quadZ G v.

Lemma pres_all_mul c ch A B : pres_all c ch A -> pres_all c ch B -> pres_all c ch (mmulZ A B).
Proof. intros HA HB G v HG. rewrite mvZ_mmulZ, (HA G _ HG). exact (HB G v HG). Qed.

(* The columns of R are the images of the unit vectors.  If R leaves invariant a form q that dominates the squares of the
   coordinates and is below 4 on the unit vectors, every entry of R has its square below 4. *)
Lemma isometry_small (q : Z * Z * Z -> Z) R :
  (forall v, q (mvZ R v) = q v) ->
  (forall x y z, x * x <= q (x, y, z) /\ y * y <= q (x, y, z) /\ z * z <= q (x, y, z)) ->
  q (1, 0, 0) < 4 -> q (0, 1, 0) < 4 -> q (0, 0, 1) < 4 -> mat_small R = true.
Proof.
  intros Hinv Hq H1 H2 H3. destruct R as [[[[[[[[a b] c] d] e] f] g] h] i].
  rewrite <- Hinv in H1, H2, H3. unfold mvZ in H1, H2, H3.
  assert (S : forall x y z, q (x, y, z) < 4 -> -1 <= x <= 1 /\ -1 <= y <= 1 /\ -1 <= z <= 1).
  { intros x y z L. destruct (Hq x y z) as (? & ? & ?). nia. }
  apply S in H1, H2, H3. apply mat_small_spec. lia.
Qed.

(* Such a form is a combination of every metric basis, with the weights pd_weights: x^2 + y^2 + z^2 where the basis starts with
   the diagonal unit forms or with the identity, 2 (x^2 - x y + y^2 + z^2) on hexagonal axes. *)
Fixpoint wquad (ws : list Z) (Gs : list mat) (v : Z * Z * Z) : Z :=
  match ws, Gs with w :: ws, G :: Gs => w * quadZ G v + wquad ws Gs v | _, _ => 0 end.

Lemma wquad_inv R ws : forall Gs, (forall G v, In G Gs -> quadZ G (mvZ R v) = quadZ G v) ->
  forall v, wquad ws Gs (mvZ R v) = wquad ws Gs v.
Proof.
  induction ws as [|w ws IH]; intros [|G Gs] H v; cbn [wquad]; try reflexivity.
  rewrite (H G v (or_introl eq_refl)), (IH Gs); [reflexivity|]. intros G' v' HG. apply H. right. exact HG.
Qed.

Definition pd_weights (c ch : string) : list Z :=
  if (c =? "hexagonal")%string then [1; 2]
  else if (c =? "trigonal")%string then (if (ch =? "rhombohedral")%string then [1] else [1; 2])
  else [1; 1; 1].

Lemma pres_all_small c ch R : known_csys c = true -> pres_all c ch R -> mat_small R = true.
Proof.
  unfold known_csys. cbn [existsb]. rewrite !orb_true_iff, !String.eqb_eq. intros Hc H.
  apply (isometry_small (wquad (pd_weights c ch) (metric_basis c ch))); [apply wquad_inv; exact H | ..].
  all: destruct Hc as [Hc|[Hc|[Hc|[Hc|[Hc|[Hc|[Hc|Hc]]]]]]]; try discriminate Hc; subst c.
  all: unfold pd_weights; cbn [String.eqb Ascii.eqb Bool.eqb metric_basis]; try destruct (ch =? "rhombohedral")%string.
  all: try reflexivity.
  all: intros x y z; cbn [wquad quadZ dot3z mvZ]; pose proof (Z.square_nonneg (x - y)); nia.
Qed.

Lemma op_mul_assoc p q r : op_mul (op_mul p q) r = op_mul p (op_mul q r).
Proof.
  destruct p as [[[[[[[[[a b] c] d] e] f] g] h] i] [[x y] z]], q as [[[[[[[[[a' b'] c'] d'] e'] f'] g'] h'] i'] [[x' y'] z']],
    r as [[[[[[[[[a2 b2] c2] d2] e2] f2] g2] h2] i2] [[x2 y2] z2]].
  unfold op_mul, mvZ, mod12v, mmulZ. rewrite !lin_mod, !Zplus_mod_idemp_r.
  apply (f_equal2 (@pair _ _)); [tup_ring|].
  repeat (apply (f_equal2 (@pair _ _))); apply (f_equal (fun t => t mod 12)); ring.
Qed.

Lemma wf_op_id : wf_op op_id.
Proof. unfold wf_op, op_id, in12; cbn. repeat split; lia. Qed.

Lemma op_mul_id_l p : wf_op p -> op_mul op_id p = p.
Proof.
  destruct p as [[[[[[[[[a b] c] d] e] f] g] h] i] [[x y] z]]. unfold wf_op, in12; cbn [fst snd]. intros (_ & Hx & Hy & Hz).
  unfold op_mul, op_id, mI9, mvZ, mod12v, mmulZ.
  apply (f_equal2 (@pair _ _)); [tup_ring|].
  repeat (apply (f_equal2 (@pair _ _))); (rewrite Z.mod_small; [ring | lia]).
Qed.

Lemma op_mul_wf p q : mat_small (mmulZ (fst p) (fst q)) = true -> wf_op (op_mul p q).
Proof.
  intros H. unfold wf_op. rewrite op_mul_fst. split; [exact H|].
  destruct p as [R1 [[x y] z]], q as [R2 [[x' y'] z']]. unfold op_mul.
  destruct (mvZ R1 (x', y', z')) as [[u v] w]. unfold mod12v, in12; cbn [fst snd].
  repeat split; apply Z.mod_pos_bound; lia.
Qed.

(* the conjuncts of the C04 checker that are used *)
Definition rcode (R : mat) : positive := Z.to_pos (1 + mat_code R).

Record accepted (s : sgrec) (ops : list op) : Prop := {
  acc_id : In (op_code op_id) (map op_code ops);
  acc_nodup : NoDup ops;
  acc_closed : forall p q, In p ops -> In q ops -> In (op_code (op_mul p q)) (map op_code ops);
  acc_inverse : forall p, In p ops -> exists q, In q ops /\ op_code (op_mul p q) = op_code op_id;
  acc_det : forall p, In p ops -> Z.abs (mdetZ (fst p)) = 1;
  acc_uniq : forall R, In R (map fst ops) -> In (rcode R) (map rcode (firstn (Z.to_nat (sg_nuniq s)) (map fst ops)));
  acc_csys : known_csys (sg_csys s) = true;
  acc_pres : forall G R, In G (metric_basis (sg_csys s) (sg_choice s)) -> In R (firstn (Z.to_nat (sg_nuniq s)) (map fst ops)) ->
               preserves R G = true }.

Lemma group_ok_ops_spec s ops : group_ok_ops s ops = true -> accepted s ops.
Proof.
  unfold group_ok_ops. rewrite !andb_true_iff.
  intros [[[[[[[[[[[[[_ _] Hid] Hcard] Hcl] Hinv] _] Hus] _] Hdet] _] Hk] Hpres] _].
  rewrite set_of_mem in Hid. apply Z.eqb_eq in Hcard. apply Nat2Z.inj in Hcard.
  rewrite forallb_forall in Hcl, Hinv, Hus, Hdet, Hpres.
  constructor.
  - exact Hid.
  - apply (NoDup_map_inv op_code), fold_card_nodup. exact Hcard.
  - intros p q Hp Hq. specialize (Hcl p Hp). rewrite forallb_forall in Hcl. apply set_of_mem. exact (Hcl q Hq).
  - intros p Hp. specialize (Hinv p Hp). apply existsb_exists in Hinv. destruct Hinv as (q & Hq & E).
    exists q. split; [exact Hq | apply Pos.eqb_eq; exact E].
  - intros p Hp. apply Z.eqb_eq. apply Hdet. apply in_map. exact Hp.
  - intros R HR. specialize (Hus R HR). unfold matset_of in Hus.
    apply (fold_add_mem rcode) in Hus. destruct Hus as [Hus|Hus]; [discriminate Hus | exact Hus].
  - exact Hk.
  - intros G R HG HR. specialize (Hpres G HG). rewrite forallb_forall in Hpres. exact (Hpres R HR).
Qed.

Section Main.
  Variables (s : sgrec) (ops : list op).
  Hypothesis Hwf : Forall wf_op ops.
  Hypothesis Hok : group_ok_ops s ops = true.

  Let wf_in p : In p ops -> wf_op p.
  Proof. intros H. rewrite Forall_forall in Hwf. exact (Hwf p H). Qed.
  Let acc : accepted s ops := group_ok_ops_spec s ops Hok.

  Lemma member_uniq p : In p ops -> In (fst p) (firstn (Z.to_nat (sg_nuniq s)) (map fst ops)).
  Proof.
    intros Hp. pose proof (acc_uniq s ops acc (fst p) (in_map fst ops p Hp)) as Hus.
    apply in_map_iff in Hus. destruct Hus as (U & E & HU).
    destruct (proj1 (in_map_iff _ _ _) (firstn_In _ _ _ HU)) as (u & <- & Hu).
    assert (Eu : fst u = fst p).
    { pose proof (proj1 (wf_in u Hu)) as S1. pose proof (proj1 (wf_in p Hp)) as S2.
      apply mat_code_inj; [exact S1 | exact S2 |].
      apply mat_code_range in S1, S2. unfold rcode in E. apply Z2Pos.inj in E; lia. }
    rewrite <- Eu. exact HU.
  Qed.

  Lemma uniq_rots R : In R (firstn (Z.to_nat (sg_nuniq s)) (map fst ops)) <-> exists p, In p ops /\ fst p = R.
  Proof.
    split.
    - intros H. apply firstn_In, in_map_iff in H. destruct H as (p & E & Hp). exists p. auto.
    - intros (p & Hp & <-). apply member_uniq. exact Hp.
  Qed.

  Lemma member_pres p : In p ops -> pres_all (sg_csys s) (sg_choice s) (fst p).
  Proof.
    intros Hp G v HG. apply preserves_quadZ. apply (acc_pres s ops acc); [exact HG | apply member_uniq; exact Hp].
  Qed.

  Lemma member_mul_wf p q : In p ops -> In q ops -> wf_op (op_mul p q).
  Proof.
    intros Hp Hq. apply op_mul_wf. apply (pres_all_small (sg_csys s) (sg_choice s)); [exact (acc_csys s ops acc)|].
    apply pres_all_mul; apply member_pres; assumption.
  Qed.

  Lemma code_member p : wf_op p -> In (op_code p) (map op_code ops) -> In p ops.
  Proof.
    intros Hp H. apply in_map_iff in H. destruct H as (r & E & Hr).
    apply op_code_inj in E; [subst; exact Hr | apply wf_in; exact Hr | exact Hp].
  Qed.

  Lemma member_closed p q : In p ops -> In q ops -> In (op_mul p q) ops.
  Proof.
    intros Hp Hq. apply code_member; [apply member_mul_wf; assumption | apply (acc_closed s ops acc); assumption].
  Qed.

  Lemma member_inverse p : In p ops -> exists q, In q ops /\ op_mul p q = op_id.
  Proof.
    intros Hp. destruct (acc_inverse s ops acc p Hp) as (q & Hq & E). exists q. split; [exact Hq|].
    apply op_code_inj; [apply member_mul_wf; assumption | exact wf_op_id | exact E].
  Qed.

  Lemma member_id : In op_id ops.
  Proof. apply code_member; [exact wf_op_id | exact (acc_id s ops acc)]. Qed.

  Lemma member_nodup : NoDup ops.
  Proof. exact (acc_nodup s ops acc). Qed.

  Lemma member_det p : In p ops -> Z.abs (mdetZ (fst p)) = 1.
  Proof. exact (acc_det s ops acc p). Qed.

  Lemma member_left_incl k : In k ops -> incl ops (map (op_mul k) ops).
  Proof.
    intros Hk p Hp. destruct (member_inverse k Hk) as (k' & Hk' & E).
    apply in_map_iff. exists (op_mul k' p). split; [|apply member_closed; assumption].
    rewrite <- op_mul_assoc, E. apply op_mul_id_l. apply wf_in. exact Hp.
  Qed.

  Lemma group_ok_ops_left_ok_ops : left_ok_ops ops = true.
  Proof. apply left_ok_ops_spec. exact (conj member_nodup (conj member_left_incl (conj member_id member_det))). Qed.
End Main.

Theorem group_ok_left_ok s : group_ok s = true -> left_ok s = true.
Proof.
  unfold group_ok, left_ok. destruct (ops_of (sg_rot s) (sg_trans s)) as [ops|] eqn:Ho; [|discriminate].
  apply (group_ok_ops_left_ok_ops s). eapply ops_of_wf; exact Ho.
Qed.

Theorem laue_group s ops rots : ops_of (sg_rot s) (sg_trans s) = Some ops -> group_ok_ops s ops = true ->
  all_mats (firstn (Z.to_nat (sg_nuniq s)) (sg_rot s)) = Some rots -> mat_group (rots ++ map mnegZ rots).
Proof.
  intros Ho Hok Hr. rewrite (ops_of_all_mats _ _ _ Ho) in Hr. injection Hr as <-. pose proof (ops_of_wf _ _ _ Ho) as Hwf.
  pose proof (uniq_rots s ops Hwf Hok) as Mem. apply neg_closure_group. split.
  - apply Mem. exists op_id. split; [apply (member_id s ops Hwf Hok) | reflexivity].
  - intros A B HA HB. apply Mem in HA, HB. destruct HA as (p & Hp & <-), HB as (q & Hq & <-). apply Mem.
    exists (op_mul p q). split; [apply (member_closed s ops Hwf Hok); assumption | apply op_mul_fst].
  - intros A HA. apply Mem in HA. destruct HA as (p & Hp & <-). destruct (member_inverse s ops Hwf Hok p Hp) as (q & Hq & E).
    exists (fst q). split; [apply Mem; exists q; auto | rewrite <- op_mul_fst, E; reflexivity].
Qed.
