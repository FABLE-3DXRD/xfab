(* C16 on the generated table *)
From Coq Require Import Reals.
From XV Require Import RealLib Elements FormFac Tab_ff.
Import ListNotations.
Open Scope R_scope.

Lemma table_keys : map fst ff_table = elements.
Proof. vm_compute. reflexivity. Qed.
Lemma ab_all : forallb (fun e => ab_ok (snd e)) ff_table = true.
Proof. vm_compute. reflexivity. Qed.
Lemma f0_all : forallb f0_ok ff_table = true.
Proof. vm_compute. reflexivity. Qed.
Lemma low2_all : forallb (fun e => low_ok 4 (snd e)) ff_table = true.
Proof. vm_compute. reflexivity. Qed.

Lemma ff_f0_all e : In e ff_table -> exists z, atomic_number (fst e) = Some z /\ Rabs (ff_R (snd e) 0 - IZR z) <= 1 / 10.
Proof. intros H. apply ff_f0. exact (proj1 (forallb_forall _ _) f0_all e H). Qed.

Lemma ff_decreasing_all e s1 s2 : In e ff_table -> 0 <= s1 < s2 -> ff_R (snd e) s2 < ff_R (snd e) s1.
Proof.
  intros H Hs. apply ff_decreasing; [|exact Hs].
  exact (proj1 (forallb_forall _ _) ab_all e H).
Qed.

Lemma ff_positive_all e s : In e ff_table -> 0 <= s <= 2 -> 0 < ff_R (snd e) s.
Proof.
  intros H Hs. apply ff_positive; [exact (proj1 (forallb_forall _ _) ab_all e H) | | exact Hs].
  apply (ff_lower _ 4); [exact (proj1 (forallb_forall _ _) low2_all e H) | ring].
Qed.
