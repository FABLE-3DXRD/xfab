(* C13 (xfab.laue) - strain and strained B matrix are exact inverses; UBI yields back U and strain *)
From Coq Require Import Reals.
From XV Require Import RealLib Mat3 Cell Gen_laue P01_laue P13_laue P13_ubi P13_old.
Open Scope R_scope.

Theorem C13_laue_eps_roundtrip : forall eps c, valid_cell c -> strain_ok eps -> laue_b_to_epsilon (laue_epsilon_to_b eps c) c = eps.
Proof. exact laue_eps_roundtrip. Qed.
Print Assumptions C13_laue_eps_roundtrip.
Theorem C13_laue_b_roundtrip : forall B c, valid_cell c -> upper B -> mdet B <> 0 -> laue_epsilon_to_b (laue_b_to_epsilon B c) c = B.
Proof. exact laue_b_roundtrip. Qed.
Print Assumptions C13_laue_b_roundtrip.
Theorem C13_laue_zero_strain : forall c, valid_cell c -> laue_epsilon_to_b (mkV6 0 0 0 0 0 0) c = laue_form_b_mat c.
Proof. exact laue_zero_strain. Qed.
Print Assumptions C13_laue_zero_strain.
Theorem C13_laue_strain_definition : forall B c, laue_b_to_epsilon B c = sym_minus_I (mmul (laue_form_b_mat c) (minv B)).
Proof. exact laue_b_to_epsilon_def. Qed.
Print Assumptions C13_laue_strain_definition.
Theorem C13_laue_old_roundtrip : forall eps c, valid_cell c -> strain_small eps -> laue_b_to_epsilon_old (laue_epsilon_to_b_old eps c) c = eps.
Proof. exact laue_eps_roundtrip_old. Qed.
Print Assumptions C13_laue_old_roundtrip.
Theorem C13_laue_old_zero_strain : forall c, valid_cell c -> laue_epsilon_to_b_old (mkV6 0 0 0 0 0 0) c = laue_form_b_mat c.
Proof. exact laue_zero_strain_old. Qed.
Print Assumptions C13_laue_old_zero_strain.
Theorem C13_laue_cell_of_any_matrix : forall A, mdet A <> 0 -> valid_cell (laue_a_to_cell A) /\ metric (laue_a_to_cell A) = mmul (mtrans A) A.
Proof. exact laue_a_to_cell_valid. Qed.
Print Assumptions C13_laue_cell_of_any_matrix.
Theorem C13_laue_form_a_of_cell : forall A, upper_posdiag A -> laue_form_a_mat (laue_a_to_cell A) = A.
Proof. exact laue_form_a_of_cell. Qed.
Print Assumptions C13_laue_form_a_of_cell.
Theorem C13_laue_ubi_gives_back_U_and_strain : forall U eps c, is_rot U -> valid_cell c -> strain_small eps ->
  laue_ubi_to_u_and_eps (minv (mmul U (laue_epsilon_to_b eps c))) c = (U, eps).
Proof. exact laue_ubi_u_eps. Qed.
Print Assumptions C13_laue_ubi_gives_back_U_and_strain.
