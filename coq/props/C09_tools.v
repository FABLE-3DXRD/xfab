(* C09 (xfab.tools): g is used as given and must have length sin(theta) *)
From Coq Require Import Reals List.
From XV Require Import RealLib Mat3 OmegaSolve Cell Gen_tools P09_laue P09_quart P09_tools P09_wedge.
Import ListNotations.
Open Scope R_scope.

Theorem C09_tools_general : forall g tth wx wy oms etas,
  0 < tth < PI -> vx g * vx g + vy g * vy g + vz g * vz g = sin (tth / 2) * sin (tth / 2) ->
  gen_a g wy * gen_a g wy + gen_b g wy * gen_b g wy <> 0 ->
  tools_find_omega_general g tth wx wy = Some (oms, etas) ->
  (forall w e, In (w, e) (combine oms etas) -> diffracts (tools_form_omega_mat_general w wx wy) g tth e) /\
  (forall w, In w oms -> - PI < w <= PI) /\
  (forall w, - PI < w <= PI -> vx (mvmul (tools_form_omega_mat_general w wx wy) g) = - (sin (tth / 2) * sin (tth / 2)) -> In w oms).
Proof. exact tools_find_omega_general_sound. Qed.
Print Assumptions C09_tools_general.

Theorem C09_tools_quart : forall g tth wx wy oms etas,
  0 < tth < PI -> vx g * vx g + vy g * vy g + vz g * vz g = sin (tth / 2) * sin (tth / 2) ->
  quart_a g wx wy * quart_a g wx wy + quart_b g wx wy * quart_b g wx wy <> 0 ->
  tools_find_omega_quart g tth wx wy = Some (oms, etas) ->
  (forall w e, In (w, e) (combine oms etas) -> diffracts (tools_quart_to_omega (w * 180 / PI) wx wy) g tth e) /\
  (forall w, In w oms -> - PI < w <= PI) /\
  (forall w, - PI < w <= PI -> vx (mvmul (tools_quart_to_omega (w * 180 / PI) wx wy) g) = - (sin (tth / 2) * sin (tth / 2)) -> In w oms).
Proof. exact tools_find_omega_quart_sound. Qed.
Print Assumptions C09_tools_quart.

Theorem C09_tools_plain : forall g tth w, 0 < tth < PI ->
  vx g * vx g + vy g * vy g + vz g * vz g = sin (tth / 2) * sin (tth / 2) -> vx g * vx g + vy g * vy g <> 0 ->
  In w (tools_find_omega g tth) ->
  vx (mvmul (tools_form_omega_mat w) g) = - (sin (tth / 2) * sin (tth / 2)) /\ - PI < w <= PI.
Proof. exact tools_find_omega_sound. Qed.
Print Assumptions C09_tools_plain.

Theorem C09_tools_tth : forall c h wl, tools_tth c h wl = 2 * asin (wl * tools_sintl c h).
Proof. exact tools_tth_def. Qed.
Print Assumptions C09_tools_tth.
Theorem C09_tools_tth_eq_tth2 : forall U c h wl, is_rot U -> valid_cell c ->
  tools_tth2 (mvmul (mmul U (tools_form_b_mat c)) h) wl = tools_tth c h wl.
Proof. exact tools_tth_eq_tth2. Qed.
Print Assumptions C09_tools_tth_eq_tth2.

(* find_omega_wedge: wedge_mat wedge w = Ry(-wedge).Rz(w); wedge_coseta is the code's own coseta.  No hypothesis on the code's quantity a: since the repair of F14 (division by a replaced by the equivalent division by a^2 + b^2) the solution is exact also where a = 0, i.e. tan(theta) = tan(wedge) cos(eta) *)
Theorem C09_tools_wedge : forall g tth wedge oms etas,
  0 < tth < PI -> vx g * vx g + vy g * vy g <> 0 -> cos wedge <> 0 ->
  tools_find_omega_wedge g tth wedge = (oms, etas) ->
  let gn := normalise_to tth g in let ce := wedge_coseta g tth wedge in
  (1 < Rabs ce -> oms = [] /\ etas = []) /\
  (Rabs ce <= 1 ->
     exists w1 w2, oms = [w1; w2] /\ etas = [acos ce; - acos ce] /\
       diffracts (wedge_mat wedge w1) gn tth (acos ce) /\ diffracts (wedge_mat wedge w2) gn tth (- acos ce) /\
       - PI < w1 <= PI /\ - PI < w2 <= PI).
Proof. exact tools_find_omega_wedge_sound. Qed.
Print Assumptions C09_tools_wedge.
Theorem C09_tools_wedge_complete : forall g tth wedge w,
  0 < tth < PI -> vx g * vx g + vy g * vy g <> 0 -> cos wedge <> 0 ->
  let gn := normalise_to tth g in
  - PI < w <= PI -> vx (mvmul (wedge_mat wedge w) gn) = - (sin (tth / 2) * sin (tth / 2)) ->
  Rabs (wedge_coseta g tth wedge) <= 1 /\ In w (fst (tools_find_omega_wedge g tth wedge)).
Proof. exact tools_find_omega_wedge_complete. Qed.
Print Assumptions C09_tools_wedge_complete.
