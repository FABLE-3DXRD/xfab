(* C09 (xfab.laue) - returned (omega, eta) satisfy the diffraction condition; none is missed.
   [diffracts Om g tth eta]: Om.g = (-sin^2(theta), -sin(2theta) sin(eta)/2, sin(2theta) cos(eta)/2) (lib/OmegaSolve.v).
   find_omega_wedge: rotation matrix Ry(-wedge).Rz(omega) (GrainSpotter sign), see the wedge theorems below. *)
From Coq Require Import Reals List.
From XV Require Import RealLib Mat3 OmegaSolve Cell Gen_laue P09_laue P09_plain P09_quart P09_wedge P09_agree.
Import ListNotations.
Open Scope R_scope.

Theorem C09_laue_general : forall g tth wx wy oms etas,
  0 < tth < PI -> vx g * vx g + vy g * vy g + vz g * vz g <> 0 ->
  let gn := normalise_to tth g in
  gen_a gn wy * gen_a gn wy + gen_b gn wy * gen_b gn wy <> 0 ->
  laue_find_omega_general g tth wx wy = Some (oms, etas) ->
  (forall w e, In (w, e) (combine oms etas) -> diffracts (laue_form_omega_mat_general w wx wy) gn tth e) /\
  (forall w, In w oms -> - PI < w <= PI) /\
  (forall w, - PI < w <= PI -> vx (mvmul (laue_form_omega_mat_general w wx wy) gn) = - (sin (tth / 2) * sin (tth / 2)) -> In w oms) /\
  (gen_a gn wy * gen_a gn wy + gen_b gn wy * gen_b gn wy - gen_c gn wy * gen_c gn wy < 0 -> oms = []) /\
  (0 < gen_a gn wy * gen_a gn wy + gen_b gn wy * gen_b gn wy - gen_c gn wy * gen_c gn wy -> exists w1 w2, oms = [w1; w2] /\ w1 <> w2).
Proof. exact laue_find_omega_general_sound. Qed.
Print Assumptions C09_laue_general.

Theorem C09_laue_general_total : forall g tth wx wy,
  vx g * vx g + vy g * vy g + vz g * vz g <> 0 -> laue_find_omega_general g tth wx wy <> None.
Proof. exact laue_find_omega_general_never_asserts. Qed.
Print Assumptions C09_laue_general_total.

Theorem C09_laue_quart : forall g tth wx wy oms etas,
  0 < tth < PI -> vx g * vx g + vy g * vy g + vz g * vz g <> 0 ->
  let gn := normalise_to tth g in
  quart_a gn wx wy * quart_a gn wx wy + quart_b gn wx wy * quart_b gn wx wy <> 0 ->
  laue_find_omega_quart g tth wx wy = Some (oms, etas) ->
  (forall w e, In (w, e) (combine oms etas) -> diffracts (laue_quart_to_omega (w * 180 / PI) wx wy) gn tth e) /\
  (forall w, In w oms -> - PI < w <= PI) /\
  (forall w, - PI < w <= PI -> vx (mvmul (laue_quart_to_omega (w * 180 / PI) wx wy) gn) = - (sin (tth / 2) * sin (tth / 2)) -> In w oms).
Proof. exact laue_find_omega_quart_sound. Qed.
Print Assumptions C09_laue_quart.

Theorem C09_laue_plain : forall g tth w, 0 < tth < PI -> vx g * vx g + vy g * vy g <> 0 ->
  In w (laue_find_omega g tth) ->
  vx (mvmul (laue_form_omega_mat w) (normalise_to tth g)) = - (sin (tth / 2) * sin (tth / 2)) /\ - PI < w <= PI.
Proof. exact laue_find_omega_sound. Qed.
Print Assumptions C09_laue_plain.

Theorem C09_laue_tth : forall c h wl, laue_tth c h wl = 2 * asin (wl * laue_sintl c h).
Proof. exact laue_tth_def. Qed.
Print Assumptions C09_laue_tth.
Theorem C09_laue_tth_eq_tth2 : forall U c h wl, is_rot U -> valid_cell c -> 0 < vnorm2 (mvmul (laue_form_b_mat c) h) ->
  laue_tth2 (mvmul (mmul U (laue_form_b_mat c)) h) wl = laue_tth c h wl.
Proof. exact laue_tth_eq_tth2. Qed.
Print Assumptions C09_laue_tth_eq_tth2.

(* find_omega_wedge: wedge_mat wedge w = Ry(-wedge).Rz(w); wedge_coseta is the code's own coseta.  No hypothesis on the code's quantity a: since the repair of F14 (division by a replaced by the equivalent division by a^2 + b^2) the solution is exact also where a = 0, i.e. tan(theta) = tan(wedge) cos(eta) *)
Theorem C09_laue_wedge : forall g tth wedge oms etas,
  0 < tth < PI -> vx g * vx g + vy g * vy g <> 0 -> cos wedge <> 0 ->
  laue_find_omega_wedge g tth wedge = (oms, etas) ->
  let gn := normalise_to tth g in let ce := wedge_coseta g tth wedge in
  (1 < Rabs ce -> oms = [] /\ etas = []) /\
  (Rabs ce <= 1 ->
     exists w1 w2, oms = [w1; w2] /\ etas = [acos ce; - acos ce] /\
       diffracts (wedge_mat wedge w1) gn tth (acos ce) /\ diffracts (wedge_mat wedge w2) gn tth (- acos ce) /\
       - PI < w1 <= PI /\ - PI < w2 <= PI).
Proof. exact laue_find_omega_wedge_sound. Qed.
Print Assumptions C09_laue_wedge.
Theorem C09_laue_wedge_complete : forall g tth wedge w,
  0 < tth < PI -> vx g * vx g + vy g * vy g <> 0 -> cos wedge <> 0 ->
  let gn := normalise_to tth g in
  - PI < w <= PI -> vx (mvmul (wedge_mat wedge w) gn) = - (sin (tth / 2) * sin (tth / 2)) ->
  Rabs (wedge_coseta g tth wedge) <= 1 /\ In w (fst (laue_find_omega_wedge g tth wedge)).
Proof. exact laue_find_omega_wedge_complete. Qed.
Print Assumptions C09_laue_wedge_complete.
Theorem C09_wedge_matrix_is_rotation : forall wedge w, is_rot (wedge_mat wedge w).
Proof. exact wedge_mat_rot. Qed.
Print Assumptions C09_wedge_matrix_is_rotation.

(* the solvers agree where their tilts coincide (zero tilt): the same set of omega from find_omega_general, find_omega_quart and
   find_omega_wedge, and every omega of find_omega is among them *)
Theorem C09_laue_zero_tilt_agreement : forall g tth, 0 < tth < PI -> vx g * vx g + vy g * vy g <> 0 -> forall oms1 etas1 oms2 etas2,
  laue_find_omega_general g tth 0 0 = Some (oms1, etas1) -> laue_find_omega_quart g tth 0 0 = Some (oms2, etas2) ->
  forall w, (In w oms1 <-> In w oms2) /\ (In w oms1 <-> In w (fst (laue_find_omega_wedge g tth 0))) /\ (In w (laue_find_omega g tth) -> In w oms1).
Proof. exact zero_tilt_agreement. Qed.
Print Assumptions C09_laue_zero_tilt_agreement.
