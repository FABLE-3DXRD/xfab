(* C05 - genhkl_all returns exactly the reflections the space group allows in the shell (partial: see DESIGN.md).
   ast_laue_sysabs: AST-translated from laue.py (equal to the tools version, C14); segm_laue / segm_tools: literals of genhkl_base;
   all_settings: the 237 tables; model/Traverse.v: hand model of the traversal, tied by in-Coq evaluation against the implementation. *)
From Coq Require Import ZArith List Bool String.
From XV Require Import SGroup HklModel Traverse Tab_segm Ast_laue Tab_sg_all P05 P05_complete P06_fd P05_cov_all P06_fd_main P05_all P05_nodup P05_qinv P05_final P05_extinv P05_box.
Open Scope Z_scope.

(* on the traversal's asymmetric unit (box [-7,7]^3, all 237 settings): sysabs = 0  <->  no operation (R,t) has hR = h with h.t non-integer *)
Theorem C05_sysabs_is_operator_extinction : forallb (sysabs_ok ast_laue_sysabs segm_laue 7) all_settings = true.
Proof. exact sysabs_all. Qed.
Print Assumptions C05_sysabs_is_operator_extinction.

Theorem C05_segment_tables_agree : segm_tools = segm_laue.
Proof. exact segm_same. Qed.
Print Assumptions C05_segment_tables_agree.

Theorem C05_segment_tables_unimodular :
  forallb (fun s => match lookup_segm segm_laue (sg_laue s) (sg_choice s) with Some segs => unimodular_segs segs | None => false end) all_settings = true.
Proof. exact segm_all_found. Qed.
Print Assumptions C05_segment_tables_unimodular.

(* none extra: every row of the traversal model is allowed, inside the shell, and in the cone of one segment (any metric, shell, fuel) *)
Theorem C05_traversal_sound : forall G Tmin Tmax Tterm allowed fuel segs l,
  all_segments G Tmin Tmax Tterm allowed fuel segs = Some l ->
  forall x, In x l -> (allowed x = true /\ Tmin < qform G x <= Tmax) /\ exists seg, In seg segs /\ in_cone seg x.
Proof. exact all_segments_sound. Qed.
Print Assumptions C05_traversal_sound.

(* the expansion of one representative: each rotated / negated image exactly once *)
Theorem C05_expand_is_orbit : forall rots h, NoDup (expand rots h) /\
  forall x, In x (expand rots h) <-> exists R, In R rots /\ (x = vmZ h R \/ x = vmZ h (mnegZ R)).
Proof. exact expand_is_orbit. Qed.
Print Assumptions C05_expand_is_orbit.

(* none missed (model): when sin(theta)/lambda does not decrease along the three loop directions inside every segment's cone
   (gram_ok: the Gram products of the directions, and of the start with each direction, are non-negative), every allowed point of a
   cone inside the shell is a row of the traversal.  gram_ok is sufficient, not necessary; in cells where it fails the implementation can miss reflections (known finding F6, found by the search). *)
Theorem C05_traversal_complete_if_monotone : forall G Tmin Tmax Tterm allowed, Tmax <= Tterm -> forall fuel segs l,
  all_segments G Tmin Tmax Tterm allowed fuel segs = Some l -> (forall seg, In seg segs -> gram_ok G seg = true) ->
  forall x seg, In seg segs -> in_cone seg x -> keep G Tmin Tmax allowed x = true -> In x l.
Proof. exact all_segments_complete. Qed.
Print Assumptions C05_traversal_complete_if_monotone.
(* the condition holds for every conforming reciprocal metric of the orthorhombic, tetragonal, cubic and hexagonal-axes systems
   (and for monoclinic / triclinic tables when the reciprocal metric happens to be orthogonal) *)
Theorem C05_monotone_systems : forall laue choice G, (choice = "standard" \/ choice = "hexagonal")%string -> monotone_system laue choice G ->
  forall seg, In seg (segs_of laue choice) -> gram_ok G seg = true.
Proof. exact monotone_system_ok. Qed.
Print Assumptions C05_monotone_systems.
Theorem C05_traversal_complete_in_those_systems : forall laue choice G Tmin Tmax Tterm allowed fuel l,
  (choice = "standard" \/ choice = "hexagonal")%string -> monotone_system laue choice G -> Tmax <= Tterm ->
  all_segments G Tmin Tmax Tterm allowed fuel (segs_of laue choice) = Some l ->
  forall x seg, In seg (segs_of laue choice) -> in_cone seg x -> allowed x = true -> Tmin < qform G x <= Tmax -> In x l.
Proof. exact traversal_complete_systems. Qed.
Print Assumptions C05_traversal_complete_in_those_systems.
Theorem C05_monotone_fails_for_oblique_monoclinic : exists G seg, In seg (segs_of "2/m" "standard") /\ gram_ok G seg = false.
Proof. exact mono_fails_oblique. Qed.
Print Assumptions C05_monotone_fails_for_oblique_monoclinic.
Theorem C05_boolean_cone_test_is_cone_membership : forall seg x, in_region seg x = true -> in_cone seg x.
Proof. exact in_region_cone. Qed.
Print Assumptions C05_boolean_cone_test_is_cone_membership.

(* every non-zero hkl has a member of its Laue orbit in one of the cones (all of Z^3, every segment table; the group of a table entry is the
   Laue group of every setting that selects it - checked by computation in fd_settings_ok) *)
Theorem C05_cones_cover_every_family : forall e, In e fd_table -> forall x y z, (x <> 0 \/ y <> 0 \/ z <> 0) ->
  exists R seg, In R (snd (fst e)) /\ In seg (snd e) /\ in_cone seg (vmZ (x, y, z) R).
Proof. exact fd_table_cover. Qed.
Print Assumptions C05_cones_cover_every_family.
Theorem C05_settings_match_their_table_entry : forallb fd_setting_ok all_settings = true.
Proof. exact fd_settings_ok. Qed.
Print Assumptions C05_settings_match_their_table_entry.
(* none missed, end to end, for the model of genhkl_all (representatives from the traversal, expanded by the point-group rotations and their
   negatives): every allowed non-zero reflection inside the shell is listed, for every setting, whenever the metric passes gram_ok for the
   setting's segments (C05_monotone_systems) and the metric and the reflection conditions are invariant under the Laue group. *)
Theorem C05_none_missed_where_monotone : forall s, In s all_settings -> forall L segs rots,
  all_mats (firstn (Z.to_nat (sg_nuniq s)) (sg_rot s)) = Some rots -> L = (rots ++ map mnegZ rots)%list ->
  lookup_segm segm_laue (sg_laue s) (sg_choice s) = Some segs ->
  forall G Tmin Tmax Tterm allowed, Tmax <= Tterm ->
  (forall seg, In seg segs -> gram_ok G seg = true) ->
  (forall R h, In R L -> qform G (vmZ h R) = qform G h) ->
  (forall R h, In R L -> qform G h <= Tmax -> allowed (vmZ h R) = allowed h) ->
  forall fuel reps, all_segments G Tmin Tmax Tterm allowed fuel segs = Some reps ->
  forall h, h <> (0, 0, 0) -> allowed h = true -> Tmin < qform G h <= Tmax -> In h (flat_map (expand rots) reps).
Proof. exact all_rows_complete. Qed.
Print Assumptions C05_none_missed_where_monotone.

(* none repeated: the rows of the traversal and the list produced by the model of genhkl_all are duplicate-free, for every setting, metric and shell *)
Theorem C05_representatives_listed_once : forall s, In s all_settings -> forall L segs rots,
  all_mats (firstn (Z.to_nat (sg_nuniq s)) (sg_rot s)) = Some rots -> L = (rots ++ map mnegZ rots)%list ->
  lookup_segm segm_laue (sg_laue s) (sg_choice s) = Some segs ->
  forall G Tmin Tmax Tterm allowed fuel reps, all_segments G Tmin Tmax Tterm allowed fuel segs = Some reps -> NoDup reps.
Proof. exact reps_nodup. Qed.
Print Assumptions C05_representatives_listed_once.
Theorem C05_reflections_listed_once : forall s, In s all_settings -> forall L segs rots,
  all_mats (firstn (Z.to_nat (sg_nuniq s)) (sg_rot s)) = Some rots -> L = (rots ++ map mnegZ rots)%list ->
  lookup_segm segm_laue (sg_laue s) (sg_choice s) = Some segs ->
  forall G Tmin Tmax Tterm allowed fuel reps, all_segments G Tmin Tmax Tterm allowed fuel segs = Some reps -> NoDup (flat_map (expand rots) reps).
Proof. exact all_rows_nodup. Qed.
Print Assumptions C05_reflections_listed_once.
(* exactly the allowed reflections of the shell, each once - where the traversal is monotone *)
Theorem C05_exactly_the_allowed_reflections_where_monotone : forall s L segs rots G Tmin Tmax Tterm allowed fuel reps,
  In s all_settings -> all_mats (firstn (Z.to_nat (sg_nuniq s)) (sg_rot s)) = Some rots -> L = (rots ++ map mnegZ rots)%list ->
  lookup_segm segm_laue (sg_laue s) (sg_choice s) = Some segs ->
  0 <= Tmin -> Tmax <= Tterm -> (forall seg, In seg segs -> gram_ok G seg = true) ->
  (forall R h, In R L -> qform G (vmZ h R) = qform G h) -> (forall R h, In R L -> qform G h <= Tmax -> allowed (vmZ h R) = allowed h) ->
  all_segments G Tmin Tmax Tterm allowed fuel segs = Some reps ->
  NoDup (flat_map (expand rots) reps) /\
  forall h, In h (flat_map (expand rots) reps) <-> (allowed h = true /\ Tmin < qform G h <= Tmax).
Proof. exact all_rows_exact. Qed.
Print Assumptions C05_exactly_the_allowed_reflections_where_monotone.

(* the same with the metric hypotheses discharged: every setting of the orthorhombic, tetragonal, cubic and hexagonal-axes systems (and
   orthogonal monoclinic / triclinic metrics), every conforming reciprocal metric (monotone_system), any shell *)
Theorem C05_exactly_the_allowed_reflections_in_monotone_systems : forall s L segs rots G Tmin Tmax Tterm allowed fuel reps,
  In s all_settings -> all_mats (firstn (Z.to_nat (sg_nuniq s)) (sg_rot s)) = Some rots -> L = (rots ++ map mnegZ rots)%list ->
  lookup_segm segm_laue (sg_laue s) (sg_choice s) = Some segs ->
  (sg_choice s = "standard" \/ sg_choice s = "hexagonal")%string -> monotone_system (sg_laue s) (sg_choice s) G ->
  0 <= Tmin -> Tmax <= Tterm -> (forall R h, In R L -> qform G h <= Tmax -> allowed (vmZ h R) = allowed h) ->
  all_segments G Tmin Tmax Tterm allowed fuel segs = Some reps ->
  NoDup (flat_map (expand rots) reps) /\
  forall h, In h (flat_map (expand rots) reps) <-> (allowed h = true /\ Tmin < qform G h <= Tmax).
Proof. exact exact_in_monotone_systems. Qed.
Print Assumptions C05_exactly_the_allowed_reflections_in_monotone_systems.
Theorem C05_monotone_setting_exists : exists s, In s all_settings /\ sg_no s = 62 /\ (sg_choice s = "standard")%string /\
  monotone_system (sg_laue s) (sg_choice s) (mkMet 7 11 13 0 0 0).
Proof. exact monotone_setting_exists. Qed.
Print Assumptions C05_monotone_setting_exists.

(* with the real reflection conditions: the traversal is run with sysabs (AST-translated from the source) and the result is characterised by
   operator extinction.  For every setting of the monotone systems, every conforming metric and every shell that fits in the box [-7,7]^3
   (Hbox), the model of genhkl_all lists exactly the reflections that no operation of the group extinguishes, each once.  Of the two facts
   used, sysabs = not extinct on the asymmetric unit is a kernel computation over the box (C05_sysabs_is_operator_extinction); that extinction is
   constant on Laue orbits holds for all of Z^3 because the operations form a group (P05_extinv.extinct_laue), and the statement on the box below
   is its corollary. *)
Theorem C05_extinction_constant_on_orbits_box : forallb (ext_inv_ok 7) all_settings = true.
Proof. exact ext_inv_all. Qed.
Print Assumptions C05_extinction_constant_on_orbits_box.
Theorem C05_exact_with_real_sysabs_in_box : forall s, In s all_settings -> forall ops L segs rots,
  ops_of (sg_rot s) (sg_trans s) = Some ops ->
  all_mats (firstn (Z.to_nat (sg_nuniq s)) (sg_rot s)) = Some rots -> L = (rots ++ map mnegZ rots)%list ->
  lookup_segm segm_laue (sg_laue s) (sg_choice s) = Some segs ->
  forall G Tmin Tmax Tterm, (sg_choice s = "standard" \/ sg_choice s = "hexagonal")%string -> monotone_system (sg_laue s) (sg_choice s) G ->
  0 <= Tmin -> Tmax <= Tterm ->
  (forall x y z, qform G (x, y, z) <= Tmax -> (-7 <= x <= 7) /\ (-7 <= y <= 7) /\ (-7 <= z <= 7)) ->
  forall fuel reps, all_segments G Tmin Tmax Tterm (allowedS s) fuel segs = Some reps ->
  NoDup (flat_map (expand rots) reps) /\
  forall h, In h (flat_map (expand rots) reps) <-> (extinct ops h = false /\ Tmin < qform G h <= Tmax).
Proof. exact exact_with_real_sysabs. Qed.
Print Assumptions C05_exact_with_real_sysabs_in_box.
Theorem C05_box_hypothesis_satisfiable : forall x y z, qform (mkMet 7 11 13 0 0 0) (x, y, z) <= 300 -> (-7 <= x <= 7) /\ (-7 <= y <= 7) /\ (-7 <= z <= 7).
Proof. exact box_hypothesis_satisfiable. Qed.
Print Assumptions C05_box_hypothesis_satisfiable.
