(* atan2 as numpy documents it (quadrant-corrected atan of y/x), over R.
   Idealisation: R has no signed zero, so numpy's arctan2(-0.0, x<0) = -pi is not modelled. *)
From Coq Require Import Reals Psatz.
Open Scope R_scope.

Definition atan2 (y x : R) : R :=
  if Rlt_dec 0 x then atan (y / x)
  else if Rlt_dec x 0 then (if Rle_dec 0 y then atan (y / x) + PI else atan (y / x) - PI)
  else if Rlt_dec 0 y then PI / 2
  else if Rlt_dec y 0 then - (PI / 2)
  else 0.

Lemma atan2_range y x : - PI < atan2 y x <= PI.
Proof.
  unfold atan2. pose proof (atan_bound (y / x)) as B.
  destruct (Rlt_dec 0 x) as [Hx|Hx]; [lra|].
  destruct (Rlt_dec x 0) as [Hx'|Hx']; [|destruct (Rlt_dec 0 y); [lra|]; destruct (Rlt_dec y 0); lra].
  (* x < 0: the quotient, and with it its atan, has the sign opposite to y *)
  assert (I : / x < 0) by (apply Rinv_lt_0_compat; exact Hx').
  destruct (Rle_dec 0 y) as [Hy|Hy].
  - destruct (Req_dec y 0) as [->|N]; [unfold Rdiv in *; rewrite Rmult_0_l, atan_0 in *; lra|].
    assert (atan (y / x) < atan 0) by (apply atan_increasing; unfold Rdiv; nra). rewrite atan_0 in *. lra.
  - assert (atan 0 < atan (y / x)) by (apply atan_increasing; unfold Rdiv; nra). rewrite atan_0 in *. lra.
Qed.

(* a test for an angle above pi, as the solvers make it on their atan2 results, is dead *)
Lemma atan2_le_PI {T} y x (u v : T) : (if Rlt_dec PI (atan2 y x) then u else v) = v.
Proof. destruct (Rlt_dec PI (atan2 y x)) as [L|L]; [|reflexivity]. pose proof (atan2_range y x). lra. Qed.

Lemma sqrt_1_sq_div y x : 0 < x -> sqrt (1 + (y / x)²) = sqrt (x * x + y * y) / x.
Proof.
  intros Hx. unfold Rsqr.
  replace (1 + y / x * (y / x)) with ((x * x + y * y) / (x * x)) by (field; lra).
  rewrite sqrt_div_alt by nra. rewrite sqrt_square by lra. reflexivity.
Qed.

Lemma sqrt_1_sq_div_neg y x : x < 0 -> sqrt (1 + (y / x)²) = sqrt (x * x + y * y) / (- x).
Proof.
  intros Hx. replace (y / x) with ((- y) / (- x)) by (field; lra).
  rewrite sqrt_1_sq_div by lra. f_equal. f_equal. ring.
Qed.

Lemma hyp_pos x y : x <> 0 \/ y <> 0 -> 0 < sqrt (x * x + y * y).
Proof. intros H. apply sqrt_lt_R0. destruct H; nra. Qed.

Lemma cos_sin_atan2 y x : x <> 0 \/ y <> 0 ->
  cos (atan2 y x) = x / sqrt (x * x + y * y) /\ sin (atan2 y x) = y / sqrt (x * x + y * y).
Proof.
  intros H. pose proof (hyp_pos x y H) as Hr. unfold atan2.
  destruct (Rlt_dec 0 x) as [Hx|Hx]; [|destruct (Rlt_dec x 0) as [Hx'|Hx']].
  - rewrite cos_atan, sin_atan, sqrt_1_sq_div by lra. split; field; lra.
  - destruct (Rle_dec 0 y); rewrite ?cos_plus, ?sin_plus, ?cos_minus, ?sin_minus, cos_PI, sin_PI, cos_atan, sin_atan,
      sqrt_1_sq_div_neg by lra; split; field; lra.
  - assert (x = 0) by lra. subst x. rewrite Rmult_0_l, Rplus_0_l in *.
    destruct (Rlt_dec 0 y) as [Hy|Hy]; [|destruct (Rlt_dec y 0) as [Hy'|Hy']; [|lra]].
    + rewrite cos_PI2, sin_PI2, sqrt_square by lra. split; field; lra.
    + rewrite cos_neg, sin_neg, cos_PI2, sin_PI2. replace (y * y) with (- y * - y) by ring.
      rewrite sqrt_square by lra. split; field; lra.
Qed.

Lemma cos_atan2 y x : x <> 0 \/ y <> 0 -> cos (atan2 y x) = x / sqrt (x * x + y * y).
Proof. apply cos_sin_atan2. Qed.
Lemma sin_atan2 y x : x <> 0 \/ y <> 0 -> sin (atan2 y x) = y / sqrt (x * x + y * y).
Proof. apply cos_sin_atan2. Qed.

Lemma cos_sin_atan2_r y x r : 0 < r -> x * x + y * y = r * r -> cos (atan2 y x) = x / r /\ sin (atan2 y x) = y / r.
Proof.
  intros Hr E. rewrite <- (sqrt_square r), <- E by lra.
  apply cos_sin_atan2. destruct (Req_dec x 0); [right; nra | left; assumption].
Qed.
Lemma cos_atan2_r y x r : 0 < r -> x * x + y * y = r * r -> cos (atan2 y x) = x / r.
Proof. apply cos_sin_atan2_r. Qed.
Lemma sin_atan2_r y x r : 0 < r -> x * x + y * y = r * r -> sin (atan2 y x) = y / r.
Proof. apply cos_sin_atan2_r. Qed.
Lemma cos_atan2_unit s c : s * s + c * c = 1 -> cos (atan2 s c) = c.
Proof. intros H. rewrite (cos_atan2_r s c 1) by lra. field. Qed.
Lemma sin_atan2_unit s c : s * s + c * c = 1 -> sin (atan2 s c) = s.
Proof. intros H. rewrite (sin_atan2_r s c 1) by lra. field. Qed.

Lemma cos_lt_1 d : 0 < d < 2 * PI -> cos d < 1.
Proof.
  intros H. destruct (Rle_dec d PI).
  - rewrite <- cos_0. apply cos_decreasing_1; lra.
  - rewrite <- cos_2PI. apply cos_increasing_1; lra.
Qed.

Lemma cos_sin_inj a b :
  - PI < a <= PI -> - PI < b <= PI -> cos a = cos b -> sin a = sin b -> a = b.
Proof.
  intros Ha Hb Hc Hs.
  assert (E : cos (a - b) = 1) by (rewrite cos_minus, Hc, Hs, Rplus_comm; exact (sin2_cos2 b)).
  (* |a - b| < 2 PI with cos = 1 *)
  destruct (Rtotal_order a b) as [L|[Z|G]]; [exfalso | exact Z | exfalso].
  - pose proof (cos_lt_1 (b - a)) as H. replace (b - a) with (- (a - b)) in H by ring. rewrite cos_neg in H. lra.
  - pose proof (cos_lt_1 (a - b)). lra.
Qed.

Lemma atan2_cos_sin t : - PI < t <= PI -> atan2 (sin t) (cos t) = t.
Proof.
  intros Ht. apply cos_sin_inj; [apply atan2_range | exact Ht | |].
  - apply cos_atan2_unit. exact (sin2_cos2 t).
  - apply sin_atan2_unit. exact (sin2_cos2 t).
Qed.

Lemma atan2_scale k y x : 0 < k -> atan2 (k * y) (k * x) = atan2 y x.
Proof.
  intros Hk. unfold atan2.
  assert (E : x <> 0 -> k * y / (k * x) = y / x) by (intros; field; lra).
  repeat (match goal with
          | |- context [Rlt_dec ?a ?b] => destruct (Rlt_dec a b)
          | |- context [Rle_dec ?a ?b] => destruct (Rle_dec a b)
          end; try (exfalso; nra)); rewrite ?E by lra; reflexivity.
Qed.

Lemma atan2_polar k t : 0 < k -> - PI < t <= PI -> atan2 (k * sin t) (k * cos t) = t.
Proof. intros Hk Ht. rewrite atan2_scale by exact Hk. apply atan2_cos_sin; exact Ht. Qed.

(* a plane vector (x, y) is determined by its dot and cross products with a non-zero (g, h) *)
Lemma lin2_unique g h x y x' y' : g * g + h * h <> 0 ->
  x * g + y * h = x' * g + y' * h -> y * g - x * h = y' * g - x' * h -> x = x' /\ y = y'.
Proof.
  intros N E1 E2. split; apply (Rmult_eq_reg_r (g * g + h * h)); try exact N.
  - transitivity (g * (x * g + y * h) - h * (y * g - x * h)); [ring | rewrite E1, E2; ring].
  - transitivity (h * (x * g + y * h) + g * (y * g - x * h)); [ring | rewrite E1, E2; ring].
Qed.

(* atan2 (p x q) (p . q) is the angle from p to q: it turns p onto q when the two have the same length *)
Lemma atan2_rotates k px py qx qy : 0 < k -> px * px + py * py <> 0 -> qx * qx + qy * qy = px * px + py * py ->
  let w := atan2 (k * (px * qy - py * qx)) (k * (px * qx + py * qy)) in
  cos w * px - sin w * py = qx /\ sin w * px + cos w * py = qy.
Proof.
  intros Hk Hp E w. assert (Hn : 0 < px * px + py * py) by nra.
  assert (L : (px * qx + py * qy) * (px * qx + py * qy) + (px * qy - py * qx) * (px * qy - py * qx)
              = (px * px + py * py) * (px * px + py * py)) by (rewrite <- E at 2; ring).
  unfold w. rewrite atan2_scale, (cos_atan2_r _ _ _ Hn L), (sin_atan2_r _ _ _ Hn L) by exact Hk.
  split; field_simplify_eq; try exact Hp; ring.
Qed.
