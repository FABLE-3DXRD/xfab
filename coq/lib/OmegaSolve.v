(* Solving a cos w + b sin w = c, and the diffraction condition. *)
From Coq Require Import Reals Psatz.
From XV Require Import RealLib Mat3 Atan2.
Import ListNotations.
Open Scope R_scope.

Lemma trig_roots a b c sq co si : a * a + b * b <> 0 -> sq * sq = a * a + b * b - c * c ->
  si * si + co * co = 1 /\ a * co + b * si = c <->
  (co = (a * c + b * sq) / (a * a + b * b) /\ si = (b * c - a * sq) / (a * a + b * b)) \/
  (co = (a * c - b * sq) / (a * a + b * b) /\ si = (b * c + a * sq) / (a * a + b * b)).
Proof.
  intros Hn Hq. split.
  - (* (co, si) in the orthogonal basis (a, b), (b, -a): the first coordinate is c, the second has the square of sq *)
    intros [H1 H2].
    assert (F : (b * co - a * si - sq) * (b * co - a * si + sq) = 0) by nsatz_R.
    apply Rmult_integral in F. rewrite <- H2.
    destruct F as [D|D]; [left; replace sq with (b * co - a * si) by lra | right; replace sq with (- (b * co - a * si)) by lra];
      split; field; exact Hn.
  - intros [[-> ->]|[-> ->]]; split; field_simplify_eq; try assumption; nsatz_R.
Qed.

Lemma trig_disc a b c co si : si * si + co * co = 1 -> a * co + b * si = c -> 0 <= a * a + b * b - c * c.
Proof.
  intros U E. replace (a * a + b * b - c * c) with ((a * si - b * co) * (a * si - b * co)) by nsatz_R. apply Rle_0_sqr.
Qed.

Lemma roots_angles a b c sq : a * a + b * b <> 0 -> sq * sq = a * a + b * b - c * c ->
  let w1 := atan2 ((b * c - a * sq) / (a * a + b * b)) ((a * c + b * sq) / (a * a + b * b)) in
  let w2 := atan2 ((b * c + a * sq) / (a * a + b * b)) ((a * c - b * sq) / (a * a + b * b)) in
  (a * cos w1 + b * sin w1 = c /\ a * cos w2 + b * sin w2 = c) /\
  (forall w, - PI < w <= PI -> a * cos w + b * sin w = c -> w = w1 \/ w = w2) /\
  (0 < sq -> w1 <> w2).
Proof.
  intros Hn Q w1 w2.
  destruct (proj2 (trig_roots a b c sq _ _ Hn Q) (or_introl (conj eq_refl eq_refl))) as [U1 E1].
  destruct (proj2 (trig_roots a b c sq _ _ Hn Q) (or_intror (conj eq_refl eq_refl))) as [U2 E2].
  pose proof (cos_atan2_unit _ _ U1) as C1. pose proof (sin_atan2_unit _ _ U1) as S1.
  pose proof (cos_atan2_unit _ _ U2) as C2. pose proof (sin_atan2_unit _ _ U2) as S2. fold w1 in C1, S1. fold w2 in C2, S2.
  split; [rewrite C1, S1, C2, S2; split; assumption|]. split.
  - intros w Hr E. destruct (proj1 (trig_roots a b c sq (cos w) (sin w) Hn Q) (conj (sc1 w) E)) as [[C S]|[C S]];
      [left | right]; unfold w1, w2; rewrite <- C, <- S; symmetry; apply atan2_cos_sin; exact Hr.
  - (* equal angles have equal cosines and sines, and the roots differ by 2 sq (b, -a) / (a^2 + b^2) *)
    intros P E. rewrite E in C1, S1.
    assert (Z : 2 * sq = b * ((a * c + b * sq) / (a * a + b * b) - (a * c - b * sq) / (a * a + b * b))
                         + a * ((b * c + a * sq) / (a * a + b * b) - (b * c - a * sq) / (a * a + b * b))) by (field; exact Hn).
    rewrite <- C1, <- S1, <- C2, <- S2 in Z. lra.
Qed.

Lemma half_angle tth : 0 < tth < PI ->
  sin tth = 2 * sin (tth / 2) * cos (tth / 2) /\ cos tth = 1 - 2 * sin (tth / 2) * sin (tth / 2) /\ 0 < sin (tth / 2) /\ 0 < cos (tth / 2).
Proof.
  intros Ht. split; [|split; [|split]].
  - replace tth with (2 * (tth / 2)) at 1 by field. apply sin_2a.
  - replace tth with (2 * (tth / 2)) at 1 by field. apply cos_2a_sin.
  - apply sin_gt_0; lra.
  - apply cos_gt_0; lra.
Qed.

Lemma sqrt_versin tth : 0 < tth < PI -> sqrt (2 * (1 - cos tth)) = 2 * sin (tth / 2).
Proof.
  intros Ht. destruct (half_angle tth Ht) as (_ & C & P & _). rewrite C.
  replace (2 * (1 - (1 - 2 * sin (tth / 2) * sin (tth / 2)))) with ((2 * sin (tth / 2)) * (2 * sin (tth / 2))) by ring.
  apply sqrt_square. lra.
Qed.

Lemma Rz_xy_inj p w w' : vx p * vx p + vy p * vy p <> 0 -> - PI < w <= PI -> - PI < w' <= PI ->
  mvmul (Rz w) p = mvmul (Rz w') p -> w = w'.
Proof.
  intros Hp Hw Hw' E. destruct p as [x y z]. cbn [vx vy] in Hp. unfold Rz, mvmul in E; cbn in E. injection E as Ex Ey.
  destruct (lin2_unique x (- y) (cos w) (sin w) (cos w') (sin w')) as [Ec Es]; [lra .. |].
  apply cos_sin_inj; assumption.
Qed.

(* the diffraction condition for a rotation matrix Om, g scaled to length sin(theta) *)
Definition diffracts (Om : M3) (g : V3) (tth eta : R) : Prop :=
  mvmul Om g = mkV3 (- (sin (tth / 2) * sin (tth / 2))) (- sin tth * sin eta / 2) (sin tth * cos eta / 2).

Definition eta_of (Om : M3) (g : V3) (tth : R) : R :=
  atan2 (- 2 * vy (mvmul Om g) / sin tth) (2 * vz (mvmul Om g) / sin tth).

(* if the x-component is right and Om preserves lengths, eta_of completes the diffraction condition *)
Lemma eta_completes Om g tth : is_rot Om -> 0 < tth < PI ->
  vnorm2 g = sin (tth / 2) * sin (tth / 2) ->
  vx (mvmul Om g) = - (sin (tth / 2) * sin (tth / 2)) ->
  diffracts Om g tth (eta_of Om g tth).
Proof.
  intros HR Ht Hn Hx. unfold diffracts, eta_of.
  pose proof (rot_vnorm2 Om g HR) as N. rewrite Hn in N.
  set (gt := mvmul Om g) in *. destruct gt as [x y z]. cbn [vx vy vz] in *. unfold vnorm2, vdot in N; cbn in N.
  destruct (half_angle tth Ht) as (S & _). assert (P : 0 < sin tth) by (apply sin_gt_0; lra).
  pose proof (sc1 (tth / 2)) as SC.
  set (sh := sin (tth / 2)) in *. set (ch := cos (tth / 2)) in *. set (S2 := sin tth) in *.
  assert (U : (- 2 * y / S2) * (- 2 * y / S2) + (2 * z / S2) * (2 * z / S2) = 1).
  { field_simplify_eq; [|lra]. subst x. clearbody sh ch S2. nsatz_R. }
  rewrite (sin_atan2_unit _ _ U), (cos_atan2_unit _ _ U). subst x. f_equal; field; lra.
Qed.

(* all that the solver needs of its family of matrices: every Om w is a rotation, and the x-component of Om w gn is a sinusoid
   in w, with c named so that this component is - |gn|^2 exactly where a cos w + b sin w = c *)
Definition sinusoid (gn : V3) (Om : R -> M3) (a b c : R) : Prop :=
  forall w, is_rot (Om w) /\
            vx (mvmul (Om w) gn) = a * cos w + b * sin w - (vx gn * vx gn + vy gn * vy gn + vz gn * vz gn) - c.

Definition solver_model (gn : V3) (tth : R) (Om : R -> M3) (a b c : R) : list R * list R :=
  let n := a * a + b * b in
  let d := n - c * c in
  if Rlt_dec d 0 then ([], [])
  else
    let sq := sqrt d in
    let w1 := atan2 ((b * c - a * sq) / n) ((a * c + b * sq) / n) in
    let w2 := atan2 ((b * c + a * sq) / n) ((a * c - b * sq) / n) in
    ([w1; w2], [eta_of (Om w1) gn tth; eta_of (Om w2) gn tth]).

(* the left-hand side is the shape of find_omega_general and find_omega_quart in both modules (the assertion on |g| as [ok],
   the test omega > pi written out on the pair): the generated functions are convertible to instances of it with their lets
   shared, and the dead tests are removed once, here, on variables *)
Lemma solver_code_shape (gn : V3) (tth : R) (Om : R -> M3) (a b c : R) (A : Prop) (ok : {A} + {~ A}) :
  (let n := a * a + b * b in
   let d := n - c * c in
   let sq := sqrt d in
   let w1 := atan2 ((b * c - a * sq) / n) ((a * c + b * sq) / n) in
   let w2 := atan2 ((b * c + a * sq) / n) ((a * c - b * sq) / n) in
   let ans u1 u2 := Some ([u1; u2], [eta_of (Om u1) gn tth; eta_of (Om u2) gn tth]) in
   if ok then
     if Rlt_dec d 0 then Some ([], [])
     else if Rlt_dec PI w1
          then if Rlt_dec PI w2 then ans (w1 - 2 * PI) (w2 - 2 * PI) else ans (w1 - 2 * PI) w2
          else if Rlt_dec PI w2 then ans w1 (w2 - 2 * PI) else ans w1 w2
   else None)
  = if ok then Some (solver_model gn tth Om a b c) else None.
Proof.
  unfold solver_model; cbv zeta. rewrite !atan2_le_PI. destruct ok; [|reflexivity]. destruct (Rlt_dec _ 0); reflexivity.
Qed.

Lemma if_Some_inv {T} (A : Prop) (ok : {A} + {~ A}) (x y : T) : (if ok then Some x else None) = Some y -> x = y.
Proof. destruct ok; [intros [= E]; exact E | discriminate]. Qed.

Section Solver.
Variables (gn : V3) (tth : R) (Om : R -> M3) (a b c : R).
Hypothesis Ht : 0 < tth < PI.
Hypothesis Hn : vx gn * vx gn + vy gn * vy gn + vz gn * vz gn = sin (tth / 2) * sin (tth / 2).
Hypothesis HOm : sinusoid gn Om a b c.
Hypothesis Hab : a * a + b * b <> 0.

Lemma x_condition w : vx (mvmul (Om w) gn) = - (sin (tth / 2) * sin (tth / 2)) <-> a * cos w + b * sin w = c.
Proof. rewrite (proj2 (HOm w)), Hn. split; intro; lra. Qed.

Lemma root_diffracts w : a * cos w + b * sin w = c -> diffracts (Om w) gn tth (eta_of (Om w) gn tth).
Proof. intros E. apply eta_completes; [apply HOm | exact Ht | exact Hn | apply x_condition; exact E]. Qed.

Theorem solver_model_spec oms etas : solver_model gn tth Om a b c = (oms, etas) ->
  (forall w e, In (w, e) (combine oms etas) -> diffracts (Om w) gn tth e) /\
  (forall w, In w oms <-> - PI < w <= PI /\ vx (mvmul (Om w) gn) = - (sin (tth / 2) * sin (tth / 2))) /\
  (a * a + b * b - c * c < 0 -> oms = []) /\
  (0 < a * a + b * b - c * c -> exists w1 w2, oms = [w1; w2] /\ w1 <> w2).
Proof.
  unfold solver_model; cbv zeta.
  destruct (Rlt_dec (a * a + b * b - c * c) 0) as [L|L]; intros E; injection E as <- <-.
  - split; [intros w e []|]. split; [|split; [reflexivity | lra]].
    intros w. split; [intros []|]. intros [_ Hxw]. apply x_condition in Hxw.
    pose proof (trig_disc a b c (cos w) (sin w) (sc1 w) Hxw). lra.
  - assert (Q : sqrt (a * a + b * b - c * c) * sqrt (a * a + b * b - c * c) = a * a + b * b - c * c) by (apply sqrt_sqrt; lra).
    destruct (roots_angles a b c _ Hab Q) as ((A1 & A2) & Cpl & Dist). cbv zeta in *.
    split; [|split; [|split; [lra|]]].
    + intros w e [E|[E|[]]]; injection E as <- <-; apply root_diffracts; assumption.
    + intros w. split.
      * intros [<-|[<-|[]]]; (split; [apply atan2_range | apply x_condition; assumption]).
      * intros [Hr Hxw]. apply x_condition in Hxw. destruct (Cpl w Hr Hxw) as [->| ->]; [left | right; left]; reflexivity.
    + intros P. eexists _, _. split; [reflexivity | apply Dist, sqrt_lt_R0, P].
Qed.

(* the members said as two implications, as the statements about the code have them *)
Corollary solver_model_sound oms etas : solver_model gn tth Om a b c = (oms, etas) ->
  (forall w e, In (w, e) (combine oms etas) -> diffracts (Om w) gn tth e) /\
  (forall w, In w oms -> - PI < w <= PI) /\
  (forall w, - PI < w <= PI -> vx (mvmul (Om w) gn) = - (sin (tth / 2) * sin (tth / 2)) -> In w oms) /\
  (a * a + b * b - c * c < 0 -> oms = []) /\
  (0 < a * a + b * b - c * c -> exists w1 w2, oms = [w1; w2] /\ w1 <> w2).
Proof.
  intros E. destruct (solver_model_spec oms etas E) as (S & M & C).
  split; [exact S|]. split; [intros w Hw; apply M; exact Hw|]. split; [|exact C]. intros w Hr Hxw. apply M. split; assumption.
Qed.
End Solver.
