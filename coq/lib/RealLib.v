(* Tactics that make nsatz, field and their side conditions dependable on the goals met here, and the few facts about R that
   several files share. *)
From Coq Require Import Reals Psatz.
From Coq Require Export Nsatz.
Open Scope R_scope.

(* hygiene for nsatz: only equalities over R, at the bottom, no x^n atoms *)
Ltac expand_pow :=
  cbn [Rpow_def.pow] in *;
  repeat match goal with
         | H : _ |- _ => progress rewrite ?Rmult_1_r in H
         end;
  rewrite ?Rmult_1_r.

Ltac only_eqs :=
  repeat match goal with
         | H : ?T |- _ =>
             lazymatch T with
             | @eq R _ _ => fail
             | _ => clear H
             end
         end;
  repeat match goal with H : @eq R _ _ |- _ => revert H end; intros.

Ltac nsatz_R := expand_pow; only_eqs; solve [nsatz].

(* syntactic positivity (never unfolds PI) *)
Ltac pos :=
  lazymatch goal with
  | |- 0 < PI => exact PI_RGT_0
  | |- 0 < ?a * ?b => apply Rmult_lt_0_compat; pos
  | |- 0 < ?a / ?b => apply Rdiv_lt_0_compat; pos
  | |- 0 < / ?a => apply Rinv_0_lt_compat; pos
  | |- _ => first [assumption | lra | nra]
  end.

(* non-zero side conditions of field *)
Ltac nz :=
  repeat split;
  first [ assumption
        | apply Rgt_not_eq; assumption
        | apply Rlt_not_eq; assumption
        | apply Rgt_not_eq; pos
        | exact PI_neq0
        | lra | nra ].

(* equation over R with divisions: clear denominators, then ideal membership *)
Ltac field_nsatz :=
  first [ solve [ring]
        | solve [field; nz]
        | solve [field_simplify_eq; [nsatz_R | nz ..]]
        | solve [field_simplify_eq; nsatz_R]
        | solve [nsatz_R] ].

(* replace every cos t / sin t by variables tied by s^2 + c^2 = 1 *)
Ltac trig_abstract_one t :=
  let c := fresh "c" in
  let s := fresh "s" in
  let H := fresh "Hsc" in
  pose proof (sin2_cos2 t) as H; unfold Rsqr in H;
  set (c := cos t) in *; set (s := sin t) in *; clearbody c s.

Lemma sqrt_sq x : 0 <= x -> sqrt (x * x) = x.
Proof. intros; apply sqrt_square; assumption. Qed.

Lemma sqrt_mul_self x : 0 <= x -> sqrt x * sqrt x = x.
Proof. intros; apply sqrt_sqrt; assumption. Qed.

Lemma sq_pos_inj x y : 0 < x -> 0 < y -> x * x = y * y -> x = y.
Proof. intros; nra. Qed.

Lemma Rabs_lt_1_sq x : x * x < 1 -> -1 < x < 1.
Proof. intros; split; nra. Qed.

Lemma abs_iff x e : Rabs x <= e <-> - e <= x <= e.
Proof. split; [unfold Rabs; destruct (Rcase_abs x); lra | apply Rabs_le]. Qed.

Lemma deg_range x : 0 < x < 180 -> 0 < x * PI / 180 < PI.
Proof. intros [H1 H2]. pose proof PI_RGT_0 as P. split; nra. Qed.

Lemma sin_deg_pos x : 0 < x < 180 -> 0 < sin (x * PI / 180).
Proof. intros H. destruct (deg_range x H). apply sin_gt_0; assumption. Qed.
