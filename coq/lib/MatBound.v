(* Entrywise bounds on vectors and 3x3 matrices: how the max-entry size behaves under sums, products, cross products and
   determinants.  Used for the tolerance bands of u_to_euler (C03) and of the rotation check (C20). *)
From Coq Require Import Reals Lra.
From XV Require Import Mat3.
Open Scope R_scope.

Definition vbound (e : R) (v : V3) : Prop := Rabs (vx v) <= e /\ Rabs (vy v) <= e /\ Rabs (vz v) <= e.
Definition mbound (e : R) (M : M3) : Prop :=
  Rabs (m00 M) <= e /\ Rabs (m01 M) <= e /\ Rabs (m02 M) <= e /\ Rabs (m10 M) <= e /\ Rabs (m11 M) <= e /\ Rabs (m12 M) <= e /\
  Rabs (m20 M) <= e /\ Rabs (m21 M) <= e /\ Rabs (m22 M) <= e.

Lemma abs_mul_le x y a b : Rabs x <= a -> Rabs y <= b -> Rabs (x * y) <= a * b.
Proof. intros. rewrite Rabs_mult. apply Rmult_le_compat; auto using Rabs_pos. Qed.

Lemma abs_dot3 x1 x2 x3 y1 y2 y3 a b : Rabs x1 <= a -> Rabs x2 <= a -> Rabs x3 <= a -> Rabs y1 <= b -> Rabs y2 <= b -> Rabs y3 <= b ->
  Rabs (x1 * y1 + x2 * y2 + x3 * y3) <= 3 * (a * b).
Proof.
  intros X1 X2 X3 Y1 Y2 Y3.
  pose proof (abs_mul_le _ _ _ _ X1 Y1). pose proof (abs_mul_le _ _ _ _ X2 Y2). pose proof (abs_mul_le _ _ _ _ X3 Y3).
  eapply Rle_trans; [apply Rabs_triang|]. eapply Rle_trans; [apply Rplus_le_compat_r, Rabs_triang|]. lra.
Qed.

Lemma abs_cross2 x1 x2 y1 y2 a b : Rabs x1 <= a -> Rabs x2 <= a -> Rabs y1 <= b -> Rabs y2 <= b ->
  Rabs (x1 * y1 - x2 * y2) <= 2 * (a * b).
Proof.
  intros X1 X2 Y1 Y2. pose proof (abs_mul_le _ _ _ _ X1 Y1). pose proof (abs_mul_le _ _ _ _ X2 Y2).
  eapply Rle_trans; [apply Rabs_triang|]. rewrite Rabs_Ropp. lra.
Qed.

Lemma vbound_vadd a b u v : vbound a u -> vbound b v -> vbound (a + b) (vadd u v).
Proof.
  intros (U1 & U2 & U3) (V1 & V2 & V3). repeat split; cbn;
    (eapply Rle_trans; [apply Rabs_triang | apply Rplus_le_compat; assumption]).
Qed.
Lemma vbound_vcross a b u v : vbound a u -> vbound b v -> vbound (2 * (a * b)) (vcross u v).
Proof. intros (U1 & U2 & U3) (V1 & V2 & V3). repeat split; cbn; apply abs_cross2; assumption. Qed.
Lemma abs_vdot a b u v : vbound a u -> vbound b v -> Rabs (vdot u v) <= 3 * (a * b).
Proof. intros (U1 & U2 & U3) (V1 & V2 & V3). apply abs_dot3; assumption. Qed.

Lemma mbound_le e e' M : e <= e' -> mbound e M -> mbound e' M.
Proof. intros H (B0 & B1 & B2 & B3 & B4 & B5 & B6 & B7 & B8). repeat split; lra. Qed.
Lemma mbound_rows e M : mbound e M <-> vbound e (mrow0 M) /\ vbound e (mrow1 M) /\ vbound e (mrow2 M).
Proof. unfold mbound, vbound; cbn. tauto. Qed.
Lemma mbound_mtrans e M : mbound e M -> mbound e (mtrans M).
Proof. unfold mbound; cbn. tauto. Qed.
Lemma mbound_madd a b A B : mbound a A -> mbound b B -> mbound (a + b) (madd A B).
Proof.
  intros (A0 & A1 & A2 & A3 & A4 & A5 & A6 & A7 & A8) (B0 & B1 & B2 & B3 & B4 & B5 & B6 & B7 & B8).
  repeat split; cbn; (eapply Rle_trans; [apply Rabs_triang | apply Rplus_le_compat; assumption]).
Qed.
Lemma mbound_mmul a b A B : mbound a A -> mbound b B -> mbound (3 * (a * b)) (mmul A B).
Proof.
  intros (A0 & A1 & A2 & A3 & A4 & A5 & A6 & A7 & A8) (B0 & B1 & B2 & B3 & B4 & B5 & B6 & B7 & B8).
  repeat split; cbn; apply abs_dot3; assumption.
Qed.

Lemma unit_vbound v : vnorm2 v = 1 -> vbound 1 v.
Proof. destruct v as [x y z]. unfold vnorm2, vdot, vbound; cbn. intros H. repeat split; apply Rabs_le; split; nra. Qed.

(* the columns of an orthogonal matrix, the rows of its transpose, are unit vectors *)
Lemma orth_mbound U : is_orth U -> mbound 1 U.
Proof.
  intros H. rewrite <- (mtrans_invol U). apply mbound_mtrans, mbound_rows.
  split; [|split]; apply unit_vbound; [exact (f_equal m00 H) | exact (f_equal m11 H) | exact (f_equal m22 H)].
Qed.

Lemma mdet_triple M : mdet M = vdot (mrow0 M) (vcross (mrow1 M) (mrow2 M)).
Proof. mat_ring. Qed.

Lemma triple_perturb u0 u1 u2 e0 e1 e2 d :
  vbound 1 u0 -> vbound 1 u1 -> vbound 1 u2 -> vbound d e0 -> vbound d e1 -> vbound d e2 ->
  Rabs (vdot (vadd u0 e0) (vcross (vadd u1 e1) (vadd u2 e2)) - vdot u0 (vcross u1 u2))
  <= 18 * d + 18 * (d * d) + 6 * (d * d * d).
Proof.
  intros U0 U1 U2 E0 E1 E2.
  (* the change of the cross product, entries below 4 d + 2 d^2; the three dot products then give 3 (4 d + 2 d^2), 3 . 2 d and
     3 d (4 d + 2 d^2) *)
  set (dc := vadd (vcross u1 e2) (vadd (vcross e1 u2) (vcross e1 e2))).
  replace (_ - _) with (vdot u0 dc + (vdot e0 (vcross u1 u2) + vdot e0 dc)) by (unfold dc; mat_ring).
  assert (C : vbound (2 * (1 * 1)) (vcross u1 u2)) by (apply vbound_vcross; assumption).
  assert (D : vbound (2 * (1 * d) + (2 * (d * 1) + 2 * (d * d))) dc) by (repeat apply vbound_vadd; apply vbound_vcross; assumption).
  pose proof (abs_vdot _ _ _ _ U0 D). pose proof (abs_vdot _ _ _ _ E0 C). pose proof (abs_vdot _ _ _ _ E0 D).
  eapply Rle_trans; [apply Rabs_triang|]. eapply Rle_trans; [apply Rplus_le_compat_l, Rabs_triang|]. lra.
Qed.

Lemma mdet_perturb U E d : mbound 1 U -> mbound d E ->
  Rabs (mdet (madd U E) - mdet U) <= 18 * d + 18 * (d * d) + 6 * (d * d * d).
Proof.
  intros HU HE. apply mbound_rows in HU, HE. destruct HU as (U0 & U1 & U2), HE as (E0 & E1 & E2).
  rewrite !mdet_triple. apply (triple_perturb (mrow0 U) (mrow1 U) (mrow2 U) (mrow0 E) (mrow1 E) (mrow2 E)); assumption.
Qed.
