(* Images as lists of rows; numpy's transpose / fliplr / flipud on 2-d arrays, with their algebraic laws on
   rectangular images. *)
From Coq Require Import List Arith Lia.
Import ListNotations.

Lemma nth_error_ext {T} (l1 l2 : list T) :
  length l1 = length l2 -> (forall i, i < length l1 -> nth_error l1 i = nth_error l2 i) -> l1 = l2.
Proof.
  revert l2; induction l1 as [|x l1 IH]; intros [|y l2] L H; try discriminate L; [reflexivity|].
  pose proof (H 0 (Nat.lt_0_succ _)) as H0. injection H0 as <-. f_equal.
  apply IH; [injection L; auto | intros i Hi; apply (H (S i)); cbn; lia].
Qed.

Lemma nth_error_rev {T} (l : list T) j : j < length l -> nth_error (rev l) j = nth_error l (length l - 1 - j).
Proof.
  intros H. destruct l as [|d l']; [cbn in H; lia|]. set (l := d :: l') in *.
  rewrite (nth_error_nth' (rev l) d) by (rewrite rev_length; exact H).
  rewrite (nth_error_nth' l d) by lia.
  rewrite rev_nth by exact H. f_equal. f_equal. lia.
Qed.

Definition flipn (b : bool) (k i : nat) : nat := if b then k - 1 - i else i.

Lemma flipn_lt b k i : i < k -> flipn b k i < k.
Proof. destruct b; cbn; lia. Qed.
Lemma flipn_invol b k i : i < k -> flipn b k (flipn b k i) = i.
Proof. destruct b; cbn; lia. Qed.

Section Img.
Context {A : Type}.

Definition img_fliplr (img : list (list A)) : list (list A) := map (@rev A) img.
Definition img_flipud (img : list (list A)) : list (list A) := rev img.
Definition width (img : list (list A)) : nat := match img with [] => 0 | r :: _ => length r end.
Definition opt_list (o : option A) : list A := match o with Some x => [x] | None => [] end.
Definition col (j : nat) (img : list (list A)) : list A := flat_map (fun r => opt_list (nth_error r j)) img.
Definition img_transpose (img : list (list A)) : list (list A) := map (fun j => col j img) (seq 0 (width img)).

Definition rect (m n : nat) (img : list (list A)) : Prop := length img = m /\ Forall (fun r => length r = n) img.
Definition get (img : list (list A)) (i j : nat) : option A :=
  match nth_error img i with Some r => nth_error r j | None => None end.

Lemma rect_row m n img i r : rect m n img -> nth_error img i = Some r -> length r = n.
Proof. intros [_ F] H. rewrite Forall_forall in F. apply F. eapply nth_error_In; eauto. Qed.

Lemma img_ext m n a b : rect m n a -> rect m n b -> (forall i j, i < m -> j < n -> get a i j = get b i j) -> a = b.
Proof.
  intros Ra Rb H. pose proof (proj1 Ra) as La. pose proof (proj1 Rb) as Lb.
  apply nth_error_ext; [congruence|]. intros i Hi. rewrite La in Hi.
  destruct (nth_error a i) as [ra|] eqn:Ea; [|apply nth_error_None in Ea; lia].
  destruct (nth_error b i) as [rb|] eqn:Eb; [|apply nth_error_None in Eb; lia].
  pose proof (rect_row _ _ _ _ _ Ra Ea) as Lra. pose proof (rect_row _ _ _ _ _ Rb Eb) as Lrb.
  f_equal. apply nth_error_ext; [congruence|]. intros j Hj. rewrite Lra in Hj.
  specialize (H i j Hi Hj). unfold get in H. rewrite Ea, Eb in H. exact H.
Qed.

Lemma rect_fliplr m n img : rect m n img -> rect m n (img_fliplr img).
Proof.
  intros [L F]. unfold img_fliplr. split; [rewrite map_length; exact L|].
  rewrite Forall_map. eapply Forall_impl; [|exact F]. intros r Hr. cbn. rewrite rev_length. exact Hr.
Qed.
Lemma rect_flipud m n img : rect m n img -> rect m n (img_flipud img).
Proof.
  intros [L F]. unfold img_flipud. split; [rewrite rev_length; exact L | apply Forall_rev; exact F].
Qed.
Lemma get_fliplr m n img i j : rect m n img -> j < n -> get (img_fliplr img) i j = get img i (n - 1 - j).
Proof.
  intros R Hj. unfold get, img_fliplr. rewrite nth_error_map.
  destruct (nth_error img i) as [r|] eqn:E; cbn; [|reflexivity].
  pose proof (rect_row _ _ _ _ _ R E) as Lr. rewrite nth_error_rev by lia. rewrite Lr. reflexivity.
Qed.
Lemma get_flipud m n img i j : rect m n img -> i < m -> get (img_flipud img) i j = get img (m - 1 - i) j.
Proof.
  intros [L _] Hi. unfold get, img_flipud. rewrite nth_error_rev by lia. rewrite L. reflexivity.
Qed.

Lemma fliplr_invol img : img_fliplr (img_fliplr img) = img.
Proof. unfold img_fliplr. rewrite map_map. rewrite <- (map_id img) at 2. apply map_ext. intros r. apply rev_involutive. Qed.
Lemma flipud_invol img : img_flipud (img_flipud img) = img.
Proof. apply rev_involutive. Qed.
Lemma fliplr_flipud img : img_fliplr (img_flipud img) = img_flipud (img_fliplr img).
Proof. unfold img_fliplr, img_flipud. rewrite map_rev. reflexivity. Qed.

Lemma col_spec j img : Forall (fun r => j < length r) img ->
  length (col j img) = length img /\ forall i, nth_error (col j img) i = get img i j.
Proof.
  induction img as [|r img IH]; intros F.
  - split; [reflexivity|]. intros i. unfold get. destruct i; reflexivity.
  - inversion F as [|? ? Hr Fr]; subst. destruct (IH Fr) as [IL IG].
    destruct (nth_error r j) as [x|] eqn:E; [|apply nth_error_None in E; lia].
    unfold col in *. cbn [flat_map]. rewrite E. cbn [opt_list app]. split; [cbn; rewrite IL; reflexivity|].
    intros [|i]; cbn; [unfold get; cbn; symmetry; exact E | rewrite IG; reflexivity].
Qed.

Lemma rect_width m n img : rect m n img -> 1 <= m -> width img = n.
Proof. intros [L F] H. destruct img as [|r img]; [cbn in L; lia|]. cbn. inversion F as [|? ? Hr ?]. exact Hr. Qed.

Lemma col_rect m n img j : rect m n img -> j < n ->
  length (col j img) = m /\ forall i, nth_error (col j img) i = get img i j.
Proof.
  intros [L F] Hj. rewrite <- L. apply col_spec. eapply Forall_impl; [|exact F]. intros r Hr. cbn in Hr. lia.
Qed.

Lemma rect_transpose m n img : rect m n img -> 1 <= m -> rect n m (img_transpose img).
Proof.
  intros R Hm. unfold img_transpose. rewrite (rect_width _ _ _ R Hm).
  split; [rewrite map_length, seq_length; reflexivity|].
  rewrite Forall_map, Forall_forall. intros j Hj. apply in_seq in Hj. apply (col_rect m n); [exact R | lia].
Qed.

Lemma get_transpose m n img i j : rect m n img -> 1 <= m -> i < n -> get (img_transpose img) i j = get img j i.
Proof.
  intros R Hm Hi. unfold get at 1, img_transpose. rewrite (rect_width _ _ _ R Hm), nth_error_map.
  rewrite (nth_error_nth' (seq 0 n) 0) by (rewrite seq_length; exact Hi). rewrite seq_nth by exact Hi. cbn.
  apply (col_rect m n); assumption.
Qed.

Lemma transpose_invol m n img : rect m n img -> 1 <= m -> 1 <= n -> img_transpose (img_transpose img) = img.
Proof.
  intros R Hm Hn. pose proof (rect_transpose _ _ _ R Hm) as Rt.
  apply (img_ext m n); [apply (rect_transpose n m); assumption | exact R |].
  intros i j Hi Hj. rewrite (get_transpose n m) by assumption. apply (get_transpose m n); assumption.
Qed.

(* Any combination of the two flips: h = left-right, v = up-down.  Entry (i, j) of the result is entry
   (flipn v m i, flipn h n j) of the argument (get_flips); transposing exchanges h and v (transpose_flips). *)
Definition flips (h v : bool) (img : list (list A)) : list (list A) :=
  let a := if h then img_fliplr img else img in if v then img_flipud a else a.

Lemma rect_flips m n img h v : rect m n img -> rect m n (flips h v img).
Proof. intros R. destruct h, v; cbn; auto using rect_fliplr, rect_flipud. Qed.

Lemma get_flips m n img h v i j : rect m n img -> i < m -> j < n ->
  get (flips h v img) i j = get img (flipn v m i) (flipn h n j).
Proof.
  intros R Hi Hj. destruct h, v; unfold flips; rewrite ?(get_flipud m n), ?(get_fliplr m n) by auto using rect_fliplr; reflexivity.
Qed.

Lemma flips_invol h v img : flips h v (flips h v img) = img.
Proof.
  destruct h, v; cbn; rewrite ?fliplr_flipud, ?flipud_invol, ?fliplr_invol; reflexivity.
Qed.

Lemma transpose_flips m n img h v : rect m n img -> 1 <= m ->
  img_transpose (flips h v img) = flips v h (img_transpose img).
Proof.
  intros R Hm. pose proof (rect_transpose _ _ _ R Hm) as Rt. pose proof (rect_flips _ _ _ h v R) as Rf.
  apply (img_ext n m); [apply rect_transpose; assumption | apply rect_flips; assumption |].
  intros i j Hi Hj.
  rewrite (get_transpose m n), (get_flips m n), (get_flips n m), (get_transpose m n); auto using flipn_lt.
Qed.

Lemma transpose_fliplr m n img : rect m n img -> 1 <= m -> img_transpose (img_fliplr img) = img_flipud (img_transpose img).
Proof. exact (transpose_flips m n img true false). Qed.

Lemma transpose_flipud m n img : rect m n img -> 1 <= m -> img_transpose (img_flipud img) = img_fliplr (img_transpose img).
Proof. exact (transpose_flips m n img false true). Qed.

End Img.

#[global] Arguments img_fliplr : simpl never.
#[global] Arguments img_flipud : simpl never.
#[global] Arguments img_transpose : simpl never.
#[global] Arguments flips : simpl never.
