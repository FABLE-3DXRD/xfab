(* The field Q(sqrt 3) as pairs of rationals, 3x3 matrices over it, and the embedding into R. *)
From Coq Require Import QArith Qreals Reals Lra List.
From XV Require Import Mat3.
Import ListNotations.

Definition qs := (Q * Q)%type.     (* (a, b) stands for a + b sqrt 3 *)
Definition qs0 : qs := (0, 0)%Q.
Definition qs1 : qs := (1, 0)%Q.
Definition qadd (x y : qs) : qs := (Qred (fst x + fst y), Qred (snd x + snd y))%Q.
Definition qmul (x y : qs) : qs :=
  (Qred (fst x * fst y + 3 * (snd x * snd y)), Qred (fst x * snd y + snd x * fst y))%Q.
Definition qopp (x : qs) : qs := (Qred (- fst x), Qred (- snd x))%Q.
Definition qsub (x y : qs) := qadd x (qopp y).
Definition qeqb (x y : qs) : bool := Qeq_bool (fst x) (fst y) && Qeq_bool (snd x) (snd y).
Definition of_half (pq : Z * Z) : qs := (Qred (fst pq # 2), Qred (snd pq # 2)).
Definition of_Z (z : Z) : qs := (inject_Z z, 0%Q).

Open Scope R_scope.
Definition toR (x : qs) : R := Q2R (fst x) + Q2R (snd x) * sqrt 3.

Lemma sqrt3_sq : sqrt 3 * sqrt 3 = 3.
Proof. apply sqrt_sqrt; lra. Qed.

Lemma Q2R_red q : Q2R (Qred q) = Q2R q.
Proof. apply Qeq_eqR. apply Qred_correct. Qed.

Lemma toR_add x y : toR (qadd x y) = toR x + toR y.
Proof. unfold toR, qadd; cbn [fst snd]. rewrite !Q2R_red, !Q2R_plus. ring. Qed.
Lemma toR_mul x y : toR (qmul x y) = toR x * toR y.
Proof.
  unfold toR, qmul; cbn [fst snd]. rewrite !Q2R_red, !Q2R_plus, !Q2R_mult.
  replace (Q2R 3) with (sqrt 3 * sqrt 3) by (rewrite sqrt3_sq; unfold Q2R; cbn; lra). ring.
Qed.
Lemma toR_opp x : toR (qopp x) = - toR x.
Proof. unfold toR, qopp; cbn [fst snd]. rewrite !Q2R_red, !Q2R_opp. ring. Qed.
Lemma toR_sub x y : toR (qsub x y) = toR x - toR y.
Proof. unfold qsub. rewrite toR_add, toR_opp. reflexivity. Qed.
Lemma toR_0 : toR qs0 = 0.
Proof. unfold toR, qs0, Q2R; cbn. lra. Qed.
Lemma toR_1 : toR qs1 = 1.
Proof. unfold toR, qs1, Q2R; cbn. lra. Qed.
Lemma toR_eqb x y : qeqb x y = true -> toR x = toR y.
Proof.
  unfold qeqb. intros H. apply andb_prop in H. destruct H as [H1 H2].
  apply Qeq_bool_eq in H1. apply Qeq_bool_eq in H2. unfold toR. rewrite (Qeq_eqR _ _ H1), (Qeq_eqR _ _ H2). reflexivity.
Qed.

Record qm := mkqm { q00 : qs; q01 : qs; q02 : qs; q10 : qs; q11 : qs; q12 : qs; q20 : qs; q21 : qs; q22 : qs }.
Definition qmI : qm := mkqm qs1 qs0 qs0 qs0 qs1 qs0 qs0 qs0 qs1.
Definition dot3 a b c d e f : qs := qadd (qadd (qmul a d) (qmul b e)) (qmul c f).
Definition qmmul (A B : qm) : qm :=
  mkqm (dot3 (q00 A) (q01 A) (q02 A) (q00 B) (q10 B) (q20 B)) (dot3 (q00 A) (q01 A) (q02 A) (q01 B) (q11 B) (q21 B))
       (dot3 (q00 A) (q01 A) (q02 A) (q02 B) (q12 B) (q22 B))
       (dot3 (q10 A) (q11 A) (q12 A) (q00 B) (q10 B) (q20 B)) (dot3 (q10 A) (q11 A) (q12 A) (q01 B) (q11 B) (q21 B))
       (dot3 (q10 A) (q11 A) (q12 A) (q02 B) (q12 B) (q22 B))
       (dot3 (q20 A) (q21 A) (q22 A) (q00 B) (q10 B) (q20 B)) (dot3 (q20 A) (q21 A) (q22 A) (q01 B) (q11 B) (q21 B))
       (dot3 (q20 A) (q21 A) (q22 A) (q02 B) (q12 B) (q22 B)).
Definition qmtrans (A : qm) : qm := mkqm (q00 A) (q10 A) (q20 A) (q01 A) (q11 A) (q21 A) (q02 A) (q12 A) (q22 A).
Definition qmeqb (A B : qm) : bool :=
  qeqb (q00 A) (q00 B) && qeqb (q01 A) (q01 B) && qeqb (q02 A) (q02 B) && qeqb (q10 A) (q10 B) && qeqb (q11 A) (q11 B)
  && qeqb (q12 A) (q12 B) && qeqb (q20 A) (q20 B) && qeqb (q21 A) (q21 B) && qeqb (q22 A) (q22 B).
Definition qmdet (A : qm) : qs :=
  qadd (qsub (qmul (q00 A) (qsub (qmul (q11 A) (q22 A)) (qmul (q12 A) (q21 A))))
             (qmul (q01 A) (qsub (qmul (q10 A) (q22 A)) (qmul (q12 A) (q20 A)))))
       (qmul (q02 A) (qsub (qmul (q10 A) (q21 A)) (qmul (q11 A) (q20 A)))).

Definition toRm (A : qm) : M3 :=
  mkM3 (toR (q00 A)) (toR (q01 A)) (toR (q02 A)) (toR (q10 A)) (toR (q11 A)) (toR (q12 A)) (toR (q20 A)) (toR (q21 A)) (toR (q22 A)).

Lemma toRm_mmul A B : toRm (qmmul A B) = mmul (toRm A) (toRm B).
Proof. destruct A, B. unfold toRm, qmmul, mmul, dot3; cbn. rewrite !toR_add, !toR_mul. reflexivity. Qed.
Lemma toRm_trans A : toRm (qmtrans A) = mtrans (toRm A).
Proof. destruct A. reflexivity. Qed.
Lemma toRm_I : toRm qmI = mI.
Proof. unfold toRm, qmI, mI; cbn. rewrite toR_0, toR_1. reflexivity. Qed.
Lemma toRm_eqb A B : qmeqb A B = true -> toRm A = toRm B.
Proof.
  unfold qmeqb. intros H. do 8 (apply andb_prop in H; destruct H as [H ?]).
  unfold toRm. f_equal; apply toR_eqb; assumption.
Qed.
Lemma toR_det A : toR (qmdet A) = mdet (toRm A).
Proof. destruct A. unfold qmdet, mdet, toRm; cbn. rewrite toR_add, toR_sub, !toR_mul, !toR_sub, !toR_mul. reflexivity. Qed.

Definition qm_of_list (l : list (Z * Z)) : option qm :=
  match map of_half l with
  | [a; b; c; d; e; f; g; h; i] => Some (mkqm a b c d e f g h i)
  | _ => None
  end.
Definition qm_of_Zlist (l : list Z) : option qm :=
  match map of_Z l with
  | [a; b; c; d; e; f; g; h; i] => Some (mkqm a b c d e f g h i)
  | _ => None
  end.
