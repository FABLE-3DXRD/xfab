(* Greedy removal of duplicates against a list of those already seen: the loop shape shared by Traverse.dedup_hkl (genhkl_all),
   Mult.uniq_count (multiplicity) and Mult.dedup (its specification). *)
From Coq Require Import ZArith List Bool.
Import ListNotations.

Lemma existsb_map {A B} (p : A -> bool) (q : B -> bool) (f : A -> B) l :
  (forall b, In b l -> p b = q (f b)) -> existsb p l = existsb q (map f l).
Proof.
  induction l as [|b l IH]; intros H; cbn; [reflexivity|].
  rewrite (H b (or_introl eq_refl)), IH by (intros c Hc; apply H; right; exact Hc). reflexivity.
Qed.

Section Dedup.
Context {A : Type}.
Variable t : A -> A -> bool.

Fixpoint gdedup (l seen : list A) : list A :=
  match l with
  | [] => seen
  | a :: r => if existsb (t a) seen then gdedup r seen else gdedup r (seen ++ [a])
  end.

Hypothesis t_spec : forall a b, t a b = true <-> a = b.

Lemma existsb_In a l : existsb (t a) l = true <-> In a l.
Proof.
  rewrite existsb_exists. split.
  - intros (b & Hb & E). apply t_spec in E. subst. exact Hb.
  - intros H. exists a. split; [exact H | apply t_spec; reflexivity].
Qed.

Lemma gdedup_spec l : forall seen, NoDup seen -> NoDup (gdedup l seen) /\ forall x, In x (gdedup l seen) <-> In x l \/ In x seen.
Proof.
  induction l as [|a r IH]; intros seen ND; cbn [gdedup].
  - split; [exact ND|]. intros x; cbn; tauto.
  - destruct (existsb (t a) seen) eqn:E.
    + apply existsb_In in E. destruct (IH seen ND) as [N I]. split; [exact N|]. intros x. rewrite I. cbn. split; [tauto|]. intros [[<-|H]|H]; tauto.
    + assert (NI : ~ In a seen) by (intro H; apply existsb_In in H; congruence).
      assert (ND' : NoDup (seen ++ [a])) by (apply (NoDup_Add (Add_app a seen [])); rewrite app_nil_r; split; assumption).
      destruct (IH _ ND') as [N I]. split; [exact N|]. intros x. rewrite I, in_app_iff. cbn. tauto.
Qed.
End Dedup.

Lemma gdedup_map {A B} (t : A -> A -> bool) (t' : B -> B -> bool) (f : A -> B) l : forall seen,
  (forall a b, In a (l ++ seen) -> In b (l ++ seen) -> t a b = t' (f a) (f b)) ->
  map f (gdedup t l seen) = gdedup t' (map f l) (map f seen).
Proof.
  induction l as [|a r IH]; intros seen H; cbn [gdedup map]; [reflexivity|].
  rewrite <- (existsb_map (t a) (t' (f a)) f seen) by (intros b Hb; apply H; [left; reflexivity | right; apply in_or_app; right; exact Hb]).
  destruct (existsb (t a) seen).
  - apply IH. intros x y Hx Hy. apply H; right; assumption.
  - replace (map f seen ++ [f a]) with (map f (seen ++ [a])) by apply map_app.
    apply IH. intros x y Hx Hy. apply H; (rewrite !in_app_iff in *; cbn in *; tauto).
Qed.

Lemma z3_eqb_spec (a b : Z * Z * Z) :
  (let '(x, y, z) := a in let '(x', y', z') := b in (x =? x')%Z && (y =? y')%Z && (z =? z')%Z) = true <-> a = b.
Proof.
  destruct a as [[x y] z], b as [[x' y'] z']. rewrite !andb_true_iff, !Z.eqb_eq. split.
  - intros [[-> ->] ->]. reflexivity.
  - intros E. injection E as -> -> ->. tauto.
Qed.
