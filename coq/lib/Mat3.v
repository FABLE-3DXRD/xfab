(* 3x3 real matrices and 3-vectors as records of their entries, so that an identity between them is a handful of ring
   identities (mat_ring).  The inverse is adjugate over determinant; its laws come from madj_l / madj_r and the
   uniqueness of inverses, not from the entries. *)
From Coq Require Import Reals Psatz.
Open Scope R_scope.

Record V2 := mkV2 { p0 : R; p1 : R }.
Record V3 := mkV3 { vx : R; vy : R; vz : R }.
Record V6 := mkV6 { c0 : R; c1 : R; c2 : R; c3 : R; c4 : R; c5 : R }.
Record M3 := mkM3 { m00 : R; m01 : R; m02 : R;
                    m10 : R; m11 : R; m12 : R;
                    m20 : R; m21 : R; m22 : R }.

Lemma V2_ext u v : p0 u = p0 v -> p1 u = p1 v -> u = v.
Proof. destruct u, v; cbn; intros; subst; reflexivity. Qed.
Lemma V3_ext u v : vx u = vx v -> vy u = vy v -> vz u = vz v -> u = v.
Proof. destruct u, v; cbn; intros; subst; reflexivity. Qed.
Lemma V6_ext u v : c0 u = c0 v -> c1 u = c1 v -> c2 u = c2 v -> c3 u = c3 v -> c4 u = c4 v -> c5 u = c5 v -> u = v.
Proof. destruct u, v; cbn; intros; subst; reflexivity. Qed.
Lemma M3_ext A B :
  m00 A = m00 B -> m01 A = m01 B -> m02 A = m02 B ->
  m10 A = m10 B -> m11 A = m11 B -> m12 A = m12 B ->
  m20 A = m20 B -> m21 A = m21 B -> m22 A = m22 B -> A = B.
Proof. destruct A, B; cbn; intros; subst; reflexivity. Qed.

Definition mI : M3 := mkM3 1 0 0 0 1 0 0 0 1.
Definition mZ : M3 := mkM3 0 0 0 0 0 0 0 0 0.

Definition mmul (A B : M3) : M3 :=
  mkM3 (m00 A * m00 B + m01 A * m10 B + m02 A * m20 B)
       (m00 A * m01 B + m01 A * m11 B + m02 A * m21 B)
       (m00 A * m02 B + m01 A * m12 B + m02 A * m22 B)
       (m10 A * m00 B + m11 A * m10 B + m12 A * m20 B)
       (m10 A * m01 B + m11 A * m11 B + m12 A * m21 B)
       (m10 A * m02 B + m11 A * m12 B + m12 A * m22 B)
       (m20 A * m00 B + m21 A * m10 B + m22 A * m20 B)
       (m20 A * m01 B + m21 A * m11 B + m22 A * m21 B)
       (m20 A * m02 B + m21 A * m12 B + m22 A * m22 B).

Definition mtrans (A : M3) : M3 :=
  mkM3 (m00 A) (m10 A) (m20 A) (m01 A) (m11 A) (m21 A) (m02 A) (m12 A) (m22 A).

Definition mscale (k : R) (A : M3) : M3 :=
  mkM3 (k * m00 A) (k * m01 A) (k * m02 A) (k * m10 A) (k * m11 A) (k * m12 A)
       (k * m20 A) (k * m21 A) (k * m22 A).

Definition madd (A B : M3) : M3 :=
  mkM3 (m00 A + m00 B) (m01 A + m01 B) (m02 A + m02 B) (m10 A + m10 B) (m11 A + m11 B) (m12 A + m12 B)
       (m20 A + m20 B) (m21 A + m21 B) (m22 A + m22 B).

Definition msub (A B : M3) : M3 :=
  mkM3 (m00 A - m00 B) (m01 A - m01 B) (m02 A - m02 B) (m10 A - m10 B) (m11 A - m11 B) (m12 A - m12 B)
       (m20 A - m20 B) (m21 A - m21 B) (m22 A - m22 B).

Definition mdet (A : M3) : R :=
  m00 A * (m11 A * m22 A - m12 A * m21 A)
  - m01 A * (m10 A * m22 A - m12 A * m20 A)
  + m02 A * (m10 A * m21 A - m11 A * m20 A).

Definition madj (A : M3) : M3 :=
  mkM3 (m11 A * m22 A - m12 A * m21 A) (m02 A * m21 A - m01 A * m22 A) (m01 A * m12 A - m02 A * m11 A)
       (m12 A * m20 A - m10 A * m22 A) (m00 A * m22 A - m02 A * m20 A) (m02 A * m10 A - m00 A * m12 A)
       (m10 A * m21 A - m11 A * m20 A) (m01 A * m20 A - m00 A * m21 A) (m00 A * m11 A - m01 A * m10 A).

(* numpy.linalg.inv is modelled by its exact mathematical meaning *)
Definition minv (A : M3) : M3 := mscale (/ mdet A) (madj A).

Definition mvmul (A : M3) (v : V3) : V3 :=
  mkV3 (m00 A * vx v + m01 A * vy v + m02 A * vz v)
       (m10 A * vx v + m11 A * vy v + m12 A * vz v)
       (m20 A * vx v + m21 A * vy v + m22 A * vz v).

Definition vdot (u v : V3) : R := vx u * vx v + vy u * vy v + vz u * vz v.
Definition vcross (u v : V3) : V3 :=
  mkV3 (vy u * vz v - vz u * vy v) (vz u * vx v - vx u * vz v) (vx u * vy v - vy u * vx v).
Definition vscale (k : R) (v : V3) : V3 := mkV3 (k * vx v) (k * vy v) (k * vz v).
Definition vadd (u v : V3) : V3 := mkV3 (vx u + vx v) (vy u + vy v) (vz u + vz v).
Definition vsub (u v : V3) : V3 := mkV3 (vx u - vx v) (vy u - vy v) (vz u - vz v).
Definition vnorm2 (v : V3) : R := vdot v v.
Definition vnorm (v : V3) : R := sqrt (vnorm2 v).
Definition mtrace (A : M3) : R := m00 A + m11 A + m22 A.
Definition mrow0 (A : M3) := mkV3 (m00 A) (m01 A) (m02 A).
Definition mrow1 (A : M3) := mkV3 (m10 A) (m11 A) (m12 A).
Definition mrow2 (A : M3) := mkV3 (m20 A) (m21 A) (m22 A).

Definition is_orth (U : M3) : Prop := mmul (mtrans U) U = mI.
Definition is_rot (U : M3) : Prop := mmul (mtrans U) U = mI /\ mdet U = 1.
Definition upper (A : M3) : Prop := m10 A = 0 /\ m20 A = 0 /\ m21 A = 0.
Definition upper_posdiag (A : M3) : Prop := upper A /\ 0 < m00 A /\ 0 < m11 A /\ 0 < m22 A.

Definition Rx (t : R) : M3 := mkM3 1 0 0 0 (cos t) (- sin t) 0 (sin t) (cos t).
Definition Ry (t : R) : M3 := mkM3 (cos t) 0 (sin t) 0 1 0 (- sin t) 0 (cos t).
Definition Rz (t : R) : M3 := mkM3 (cos t) (- sin t) 0 (sin t) (cos t) 0 0 0 1.

Ltac destr_all :=
  repeat match goal with
         | A : M3 |- _ => destruct A
         | v : V3 |- _ => destruct v
         | v : V6 |- _ => destruct v
         | v : V2 |- _ => destruct v
         end.

(* the matrix vocabulary unfolded in the goal and the hypotheses, everything else left as written; where only the goal matters
   mcbv below does the same by cbv and is much faster on large terms *)
Ltac munfold :=
  unfold is_rot, is_orth, upper_posdiag, upper, minv, mmul, mtrans, mscale, madd, msub, mdet, madj, mvmul,
    vnorm, vnorm2, vdot, vcross, vscale, vadd, vsub, mtrace, mI, mZ,
    mrow0, mrow1, mrow2 in *;
  cbn [m00 m01 m02 m10 m11 m12 m20 m21 m22 vx vy vz c0 c1 c2 c3 c4 c5 p0 p1] in *.

Ltac mcbv :=
  cbv beta iota zeta delta [is_rot is_orth upper_posdiag upper minv mmul mtrans mscale madd msub mdet madj mvmul
    vnorm vnorm2 vdot vcross vscale vadd vsub mtrace mI mZ mrow0 mrow1 mrow2 Rx Ry Rz
    m00 m01 m02 m10 m11 m12 m20 m21 m22 vx vy vz c0 c1 c2 c3 c4 c5 p0 p1].

(* a polynomial identity between scalars, or entry by entry between vectors or matrices *)
Ltac mat_ring := intros; destr_all; mcbv; first [ring | f_equal; ring].

Lemma vdot_vadd h u v : vdot h (vadd u v) = vdot h u + vdot h v.
Proof. mat_ring. Qed.
Lemma vnorm2_vscale k v : vnorm2 (vscale k v) = k * k * vnorm2 v.
Proof. mat_ring. Qed.
Lemma vnorm2_nonneg v : 0 <= vnorm2 v.
Proof. destruct v as [x y z]; munfold. nra. Qed.
Lemma vnorm2_zero v : vnorm2 v = 0 -> v = mkV3 0 0 0.
Proof. destruct v as [x y z]; munfold. intros H. f_equal; nra. Qed.
Lemma vnorm_vscale k v : 0 <= k -> vnorm (vscale k v) = k * vnorm v.
Proof.
  intros Hk. unfold vnorm. rewrite vnorm2_vscale, sqrt_mult, sqrt_square by (try apply vnorm2_nonneg; nra). reflexivity.
Qed.

Lemma lagrange u v : vnorm2 (vcross u v) = vnorm2 u * vnorm2 v - vdot u v * vdot u v.
Proof. mat_ring. Qed.

(* three vectors with non-zero triple product: none vanishes and no two are parallel (strict Cauchy-Schwarz) *)
Lemma triple_nz u v w : vdot (vcross u v) w <> 0 ->
  0 < vnorm2 u /\ 0 < vnorm2 v /\ 0 < vnorm2 u * vnorm2 v - vdot u v * vdot u v.
Proof.
  intros H. pose proof (vnorm2_nonneg u) as Nu. pose proof (vnorm2_nonneg v) as Nv.
  assert (X : 0 < vnorm2 (vcross u v)).
  { pose proof (vnorm2_nonneg (vcross u v)). destruct (Req_dec (vnorm2 (vcross u v)) 0) as [Z|N]; [|lra].
    exfalso; apply H. rewrite (vnorm2_zero _ Z). mat_ring. }
  rewrite lagrange in X. assert (0 <= vdot u v * vdot u v) by nra.
  repeat split; [nra | nra | exact X].
Qed.

Lemma mmul_assoc A B C : mmul (mmul A B) C = mmul A (mmul B C).
Proof. mat_ring. Qed.
Lemma mmul_I_l A : mmul mI A = A.
Proof. mat_ring. Qed.
Lemma mmul_I_r A : mmul A mI = A.
Proof. mat_ring. Qed.
Lemma mmul_madd_l A B C : mmul (madd A B) C = madd (mmul A C) (mmul B C).
Proof. mat_ring. Qed.
Lemma mmul_madd_r A B C : mmul A (madd B C) = madd (mmul A B) (mmul A C).
Proof. mat_ring. Qed.
Lemma mmul_mZ_l A : mmul mZ A = mZ.
Proof. mat_ring. Qed.
Lemma mmul_mZ_r A : mmul A mZ = mZ.
Proof. mat_ring. Qed.
Lemma mmul_mscale_l k A B : mmul (mscale k A) B = mscale k (mmul A B).
Proof. mat_ring. Qed.
Lemma mmul_mscale_r k A B : mmul A (mscale k B) = mscale k (mmul A B).
Proof. mat_ring. Qed.
Lemma mscale_mscale k l A : mscale k (mscale l A) = mscale (k * l) A.
Proof. mat_ring. Qed.
Lemma mscale_1 A : mscale 1 A = A.
Proof. mat_ring. Qed.
Lemma mscale_cancel k A : k <> 0 -> mscale k (mscale (/ k) A) = A.
Proof. intros H. rewrite mscale_mscale, Rinv_r by exact H. apply mscale_1. Qed.
Lemma mscale_cancel_inv k A : k <> 0 -> mscale (/ k) (mscale k A) = A.
Proof. intros H. rewrite mscale_mscale, Rinv_l by exact H. apply mscale_1. Qed.

Lemma mvmul_mmul A B v : mvmul (mmul A B) v = mvmul A (mvmul B v).
Proof. mat_ring. Qed.
Lemma mvmul_I v : mvmul mI v = v.
Proof. mat_ring. Qed.
Lemma mvmul_mscale k A v : mvmul (mscale k A) v = vscale k (mvmul A v).
Proof. mat_ring. Qed.
Lemma mvmul_vscale A k v : mvmul A (vscale k v) = vscale k (mvmul A v).
Proof. mat_ring. Qed.

Lemma mtrans_mmul A B : mtrans (mmul A B) = mmul (mtrans B) (mtrans A).
Proof. mat_ring. Qed.
Lemma mtrans_invol A : mtrans (mtrans A) = A.
Proof. mat_ring. Qed.
Lemma mtrans_I : mtrans mI = mI.
Proof. reflexivity. Qed.
Lemma mtrans_mscale k A : mtrans (mscale k A) = mscale k (mtrans A).
Proof. mat_ring. Qed.
Lemma vnorm2_mvmul A v : vnorm2 (mvmul A v) = vdot v (mvmul (mmul (mtrans A) A) v).
Proof. mat_ring. Qed.

Lemma mtrace_mtrans A : mtrace (mtrans A) = mtrace A.
Proof. destruct A; reflexivity. Qed.
Lemma mtrace_cyc A B : mtrace (mmul A B) = mtrace (mmul B A).
Proof. mat_ring. Qed.

Lemma mdet_mmul A B : mdet (mmul A B) = mdet A * mdet B.
Proof. mat_ring. Qed.
Lemma mdet_mtrans A : mdet (mtrans A) = mdet A.
Proof. mat_ring. Qed.
Lemma mdet_I : mdet mI = 1.
Proof. mat_ring. Qed.
Lemma mdet_mscale k A : mdet (mscale k A) = k * k * k * mdet A.
Proof. mat_ring. Qed.

Lemma madj_l A : mmul (madj A) A = mscale (mdet A) mI.
Proof. mat_ring. Qed.
Lemma madj_r A : mmul A (madj A) = mscale (mdet A) mI.
Proof. mat_ring. Qed.

Lemma minv_l A : mdet A <> 0 -> mmul (minv A) A = mI.
Proof. intros H. unfold minv. rewrite mmul_mscale_l, madj_l. apply mscale_cancel_inv, H. Qed.
Lemma minv_r A : mdet A <> 0 -> mmul A (minv A) = mI.
Proof. intros H. unfold minv. rewrite mmul_mscale_r, madj_r. apply mscale_cancel_inv, H. Qed.

Lemma mmul_I_det A B : mmul A B = mI -> mdet A <> 0 /\ mdet B <> 0.
Proof.
  intros H. assert (E : mdet A * mdet B = 1) by (rewrite <- mdet_mmul, H; apply mdet_I).
  split; intro Z; rewrite Z in E; lra.
Qed.

Lemma minv_unique_r A B : mmul A B = mI -> B = minv A.
Proof.
  intros H. destruct (mmul_I_det _ _ H) as [HA _].
  rewrite <- (mmul_I_l B), <- (minv_l A HA), mmul_assoc, H, mmul_I_r. reflexivity.
Qed.
Lemma minv_unique_l A B : mmul B A = mI -> B = minv A.
Proof.
  intros H. destruct (mmul_I_det _ _ H) as [_ HA].
  rewrite <- (mmul_I_r B), <- (minv_r A HA), <- mmul_assoc, H, mmul_I_l. reflexivity.
Qed.
Lemma mmul_I_comm A B : mmul A B = mI -> mmul B A = mI.
Proof.
  intros H. destruct (mmul_I_det _ _ H) as [HA _].
  rewrite (minv_unique_r _ _ H). apply minv_l; exact HA.
Qed.
Lemma minv_mmul A B : mdet A <> 0 -> mdet B <> 0 -> minv (mmul A B) = mmul (minv B) (minv A).
Proof.
  intros HA HB. symmetry. apply minv_unique_r.
  rewrite mmul_assoc, <- (mmul_assoc B), (minv_r B HB), mmul_I_l. apply minv_r; exact HA.
Qed.
Lemma minv_invol A : mdet A <> 0 -> minv (minv A) = A.
Proof. intros HA. symmetry. apply minv_unique_r. apply minv_l; exact HA. Qed.
Lemma mdet_minv A : mdet A <> 0 -> mdet (minv A) = / mdet A.
Proof.
  intros HA. apply (Rmult_eq_reg_r (mdet A)); [|exact HA].
  rewrite <- mdet_mmul, minv_l, Rinv_l by exact HA. apply mdet_I.
Qed.
Lemma minv_mscale k A : k <> 0 -> mdet A <> 0 -> minv (mscale k A) = mscale (/ k) (minv A).
Proof.
  intros Hk HA. symmetry. apply minv_unique_r.
  rewrite mmul_mscale_l, mmul_mscale_r, minv_r by exact HA. apply mscale_cancel, Hk.
Qed.
Lemma minv_mtrans A : minv (mtrans A) = mtrans (minv A).
Proof. unfold minv. rewrite mdet_mtrans, mtrans_mscale. f_equal. mat_ring. Qed.
Lemma minv_I : minv mI = mI.
Proof. symmetry; apply minv_unique_r; apply mmul_I_l. Qed.

Lemma congruence_minv Rm G : mdet G <> 0 -> mmul (mtrans Rm) (mmul G Rm) = G -> mmul Rm (mmul (minv G) (mtrans Rm)) = minv G.
Proof.
  intros DG HR.
  (* det(R)^2 det G = det G *)
  assert (HD : mdet Rm <> 0).
  { pose proof (f_equal mdet HR) as E. rewrite !mdet_mmul, mdet_mtrans in E. intro Z. rewrite Z in E. apply DG. lra. }
  assert (E : mmul (mtrans Rm) G = mmul G (minv Rm)).
  { rewrite <- HR at 2. rewrite !mmul_assoc, minv_r, mmul_I_r by exact HD. reflexivity. }
  apply minv_unique_l. rewrite !mmul_assoc, E, <- (mmul_assoc (minv G)), minv_l, mmul_I_l by exact DG. apply minv_r; exact HD.
Qed.

Lemma orth_gram Q A B : is_orth Q -> mmul (mtrans (mmul Q A)) (mmul Q B) = mmul (mtrans A) B.
Proof. intros H. rewrite mtrans_mmul, mmul_assoc, <- (mmul_assoc (mtrans Q)), H, mmul_I_l. reflexivity. Qed.

Lemma rot_I : is_rot mI.
Proof. split; [apply mmul_I_l | apply mdet_I]. Qed.
Lemma rot_UUt U : is_rot U -> mmul U (mtrans U) = mI.
Proof. intros [H _]. apply mmul_I_comm; exact H. Qed.
Lemma rot_mmul U V : is_rot U -> is_rot V -> is_rot (mmul U V).
Proof.
  intros [HU DU] [HV DV]. split; [rewrite orth_gram by exact HU; exact HV | rewrite mdet_mmul, DU, DV; ring].
Qed.
Lemma rot_mtrans U : is_rot U -> is_rot (mtrans U).
Proof.
  intros H. split; [rewrite mtrans_invol; apply rot_UUt; exact H | rewrite mdet_mtrans; apply H].
Qed.
Lemma rot_det_nz U : is_rot U -> mdet U <> 0.
Proof. intros [_ D]; rewrite D; lra. Qed.
Lemma rot_minv U : is_rot U -> minv U = mtrans U.
Proof. intros [H _]. symmetry. apply minv_unique_l. exact H. Qed.

(* the cofactor equations of a rotation; with U'U = I (the definition) and UU' = I (rot_UUt) these are all the
   polynomial facts about its entries, and [f_equal m01] picks one of them without taking U apart *)
Lemma rot_madj U : is_rot U -> madj U = mtrans U.
Proof.
  intros H. rewrite <- (rot_minv U H). unfold minv. destruct H as [_ ->]. rewrite Rinv_1, mscale_1. reflexivity.
Qed.

Lemma rot_vnorm2 U v : is_rot U -> vnorm2 (mvmul U v) = vnorm2 v.
Proof. intros [H _]. rewrite vnorm2_mvmul, H, mvmul_I. reflexivity. Qed.

Lemma rot_cols_unit U : is_rot U ->
  m00 U * m00 U + m10 U * m10 U + m20 U * m20 U = 1 /\ m01 U * m01 U + m11 U * m11 U + m21 U * m21 U = 1 /\
  m02 U * m02 U + m12 U * m12 U + m22 U * m22 U = 1.
Proof. intros [H _]. exact (conj (f_equal m00 H) (conj (f_equal m11 H) (f_equal m22 H))). Qed.

Lemma rot_rows_unit U : is_rot U ->
  m00 U * m00 U + m01 U * m01 U + m02 U * m02 U = 1 /\ m10 U * m10 U + m11 U * m11 U + m12 U * m12 U = 1 /\
  m20 U * m20 U + m21 U * m21 U + m22 U * m22 U = 1.
Proof. intros H. exact (rot_cols_unit _ (rot_mtrans U H)). Qed.

Lemma rot_mmul_det U B : is_rot U -> mdet (mmul U B) = mdet B.
Proof. intros [_ D]. rewrite mdet_mmul, D. ring. Qed.
Lemma minv_rot_mmul U B : is_rot U -> mdet B <> 0 -> minv (mmul U B) = mmul (minv B) (mtrans U).
Proof. intros HU DB. rewrite minv_mmul, (rot_minv U HU) by (first [apply rot_det_nz; exact HU | exact DB]). reflexivity. Qed.
Lemma minv_rot_mmul_u U B : is_rot U -> mdet B <> 0 -> mmul (minv (mmul U B)) U = minv B.
Proof. intros HU DB. rewrite minv_rot_mmul, mmul_assoc by assumption. destruct HU as [-> _]. apply mmul_I_r. Qed.

(* (A^-1)(A^-1)' = (A'A)^-1 at A = U B, where A'A = B'B *)
Lemma minv_rot_gram U B : is_rot U -> mdet B <> 0 ->
  mmul (minv (mmul U B)) (mtrans (minv (mmul U B))) = minv (mmul (mtrans B) B).
Proof.
  intros HU DB. assert (D : mdet (mmul U B) <> 0) by (rewrite rot_mmul_det; assumption).
  rewrite <- minv_mtrans, <- minv_mmul by (rewrite ?mdet_mtrans; exact D). rewrite orth_gram by apply HU. reflexivity.
Qed.

Lemma upper_posdiag_mk a b c d e f : 0 < a -> 0 < d -> 0 < f -> upper_posdiag (mkM3 a b c 0 d e 0 0 f).
Proof. intros Ha Hd Hf. repeat split; assumption. Qed.
Lemma upper_det A : upper A -> mdet A = m00 A * m11 A * m22 A.
Proof. intros (U1 & U2 & U3). unfold mdet. rewrite U1, U2, U3. ring. Qed.

Lemma upper_posdiag_det B : upper_posdiag B -> 0 < mdet B.
Proof. intros [HU (P0 & P1 & P2)]. rewrite (upper_det B HU). repeat apply Rmult_lt_0_compat; assumption. Qed.

Lemma upper_minv B : upper B -> mdet B <> 0 -> upper (minv B).
Proof.
  intros (U1 & U2 & U3) D. destruct B as [a b c d e f g h i]. unfold minv, mscale, madj, upper; cbn in *. subst.
  repeat split; ring.
Qed.

Lemma upper_posdiag_minv A : upper_posdiag A -> upper_posdiag (minv A).
Proof.
  intros HA. pose proof (upper_posdiag_det A HA) as D. destruct HA as [HU (P0 & P1 & P2)].
  split; [apply upper_minv; [exact HU | lra] |].
  destruct HU as (U1 & U2 & U3). destruct A as [a b c d e f g h i]. cbn in *. subst.
  unfold minv, mscale, madj, mdet; cbn.
  repeat split.
  - replace (_ * _) with (/ a) by (field; repeat split; lra). apply Rinv_0_lt_compat; assumption.
  - replace (_ * _) with (/ e) by (field; repeat split; lra). apply Rinv_0_lt_compat; assumption.
  - replace (_ * _) with (/ i) by (field; repeat split; lra). apply Rinv_0_lt_compat; assumption.
Qed.

Lemma upper_posdiag_mscale k B : 0 < k -> upper_posdiag B -> upper_posdiag (mscale k B).
Proof.
  intros Hk [(U1 & U2 & U3) (P0 & P1 & P2)]. unfold upper_posdiag, upper, mscale; cbn.
  rewrite U1, U2, U3. repeat split; try ring; apply Rmult_lt_0_compat; assumption.
Qed.

(* uniqueness of the upper-triangular positive-diagonal (Cholesky) factor: the entries of B'B determine those of B one
   after the other, row by row *)
Lemma chol_unique B C :
  upper_posdiag B -> upper_posdiag C -> mmul (mtrans B) B = mmul (mtrans C) C -> B = C.
Proof.
  intros [[B1 [B2 B3]] [Bp0 [Bp1 Bp2]]] [[C1 [C2 C3]] [Cp0 [Cp1 Cp2]]] H.
  destruct B as [b00 b01 b02 b10 b11 b12 b20 b21 b22], C as [d00 d01 d02 d10 d11 d12 d20 d21 d22].
  munfold. subst. injection H as E0 E1 E2 E3 E4 E5 E6 E7 E8.
  assert (d00 = b00) by nra. subst d00.
  assert (d01 = b01) by nra. assert (d02 = b02) by nra. subst d01 d02.
  assert (d11 = b11) by nra. subst d11.
  assert (d12 = b12) by nra. subst d12.
  assert (d22 = b22) by nra. subst d22. reflexivity.
Qed.

Lemma qr_unique U1 B1 U2 B2 :
  is_rot U1 -> is_rot U2 -> upper_posdiag B1 -> upper_posdiag B2 ->
  mmul U1 B1 = mmul U2 B2 -> U1 = U2 /\ B1 = B2.
Proof.
  intros R1 R2 P1 P2 H.
  assert (EB : B1 = B2).
  { apply chol_unique; try assumption. rewrite <- (orth_gram U1 B1 B1 (proj1 R1)), H. apply orth_gram, R2. }
  split; [|exact EB]. subst B2.
  assert (D : mdet B1 <> 0) by (generalize (upper_posdiag_det _ P1); lra).
  rewrite <- (mmul_I_r U1), <- (mmul_I_r U2), <- (minv_r B1 D), <- !mmul_assoc, H. reflexivity.
Qed.

Lemma sc1 t : sin t * sin t + cos t * cos t = 1.
Proof. exact (sin2_cos2 t). Qed.

Lemma rot_Rx t : is_rot (Rx t).
Proof. pose proof (sc1 t) as H. split; mcbv; [f_equal|]; nra. Qed.
Lemma rot_Ry t : is_rot (Ry t).
Proof. pose proof (sc1 t) as H. split; mcbv; [f_equal|]; nra. Qed.
Lemma rot_Rz t : is_rot (Rz t).
Proof. pose proof (sc1 t) as H. split; mcbv; [f_equal|]; nra. Qed.
Lemma Rx_0 : Rx 0 = mI.
Proof. unfold Rx, mI. rewrite cos_0, sin_0. f_equal; ring. Qed.
Lemma Ry_0 : Ry 0 = mI.
Proof. unfold Ry, mI. rewrite cos_0, sin_0. f_equal; ring. Qed.
Lemma Rz_0 : Rz 0 = mI.
Proof. unfold Rz, mI. rewrite cos_0, sin_0. f_equal; ring. Qed.
Lemma Ry_neg t : Ry (- t) = mtrans (Ry t).
Proof. unfold Ry, mtrans; cbn. rewrite cos_neg, sin_neg. f_equal; ring. Qed.
