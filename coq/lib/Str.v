(* The two monoid laws of string concatenation that Coq.Strings.String does not state. *)
From Coq Require Import String.
Open Scope string_scope.

Lemma app_empty_r s : s ++ "" = s.
Proof. induction s as [|c s IH]; cbn; [reflexivity | rewrite IH; reflexivity]. Qed.
Lemma app_assoc' a b c : (a ++ b) ++ c = a ++ b ++ c.
Proof. induction a as [|x a IH]; cbn; [reflexivity | rewrite IH; reflexivity]. Qed.
