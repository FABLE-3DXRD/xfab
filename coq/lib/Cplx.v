(* Complex numbers as pairs of reals, finite sums, and the phase factor cis. *)
From Coq Require Import Reals Psatz Permutation.
From XV Require Import RealLib Mat3.
Import ListNotations.
Open Scope R_scope.

Definition C := (R * R)%type.
Definition c0 : C := (0, 0).
Definition c1 : C := (1, 0).
Definition cadd (a b : C) : C := (fst a + fst b, snd a + snd b).
Definition cmul (a b : C) : C := (fst a * fst b - snd a * snd b, fst a * snd b + snd a * fst b).
Definition cscale (r : R) (a : C) : C := (r * fst a, r * snd a).
Definition cconj (a : C) : C := (fst a, - snd a).
Definition cis (t : R) : C := (cos t, sin t).
Definition csum (l : list C) : C := fold_right cadd c0 l.
Definition cnorm2 (a : C) : R := fst a * fst a + snd a * snd a.

Lemma C_ext (a b : C) : fst a = fst b -> snd a = snd b -> a = b.
Proof. apply injective_projections. Qed.
Ltac cring := intros; apply C_ext; unfold cadd, cmul, cscale, cconj, c0, c1; cbn [fst snd]; ring.

Lemma cmul_comm a b : cmul a b = cmul b a. Proof. cring. Qed.
Lemma cmul_assoc a b c : cmul (cmul a b) c = cmul a (cmul b c). Proof. cring. Qed.
Lemma cmul_1_l a : cmul c1 a = a. Proof. cring. Qed.
Lemma cmul_cadd a b c : cmul a (cadd b c) = cadd (cmul a b) (cmul a c). Proof. cring. Qed.
Lemma cmul_c0 a : cmul a c0 = c0. Proof. cring. Qed.
Lemma cscale_cmul r a b : cscale r (cmul a b) = cmul a (cscale r b). Proof. cring. Qed.
Lemma cscale_cmul_l r a b : cscale r (cmul a b) = cmul (cscale r a) b. Proof. cring. Qed.
Lemma cadd_comm a b : cadd a b = cadd b a. Proof. cring. Qed.
Lemma cadd_assoc a b c : cadd (cadd a b) c = cadd a (cadd b c). Proof. cring. Qed.
Lemma cadd_0_r a : cadd a c0 = a. Proof. cring. Qed.
Lemma cadd_0_l a : cadd c0 a = a. Proof. cring. Qed.
Lemma cscale_cadd r a b : cscale r (cadd a b) = cadd (cscale r a) (cscale r b). Proof. cring. Qed.
Lemma cscale_c0 r : cscale r c0 = c0. Proof. cring. Qed.
Lemma cscale_cscale r t a : cscale r (cscale t a) = cscale (r * t) a. Proof. cring. Qed.
Lemma cconj_cadd a b : cconj (cadd a b) = cadd (cconj a) (cconj b). Proof. cring. Qed.
Lemma cconj_c0 : cconj c0 = c0. Proof. cring. Qed.

Lemma cis_add a b : cis (a + b) = cmul (cis a) (cis b).
Proof. unfold cis, cmul; cbn [fst snd]. rewrite cos_plus, sin_plus. apply C_ext; cbn [fst snd]; ring. Qed.
Lemma cis_0 : cis 0 = c1.
Proof. unfold cis, c1. rewrite cos_0, sin_0. reflexivity. Qed.
Lemma cis_neg a : cis (- a) = cconj (cis a).
Proof. unfold cis, cconj; cbn [fst snd]. rewrite cos_neg, sin_neg. reflexivity. Qed.
Lemma cnorm2_cis a : cnorm2 (cis a) = 1.
Proof. unfold cnorm2, cis; cbn [fst snd]. pose proof (sc1 a). lra. Qed.

Lemma cnorm2_cmul a b : cnorm2 (cmul a b) = cnorm2 a * cnorm2 b.
Proof. unfold cnorm2, cmul; cbn [fst snd]. ring. Qed.
Lemma cnorm2_cis_cmul t F : cnorm2 (cmul (cis t) F) = cnorm2 F.
Proof. rewrite cnorm2_cmul, cnorm2_cis. ring. Qed.

(* (1 - c) F = 0 with c <> 1: |1 - c|^2 F = 0 componentwise *)
Lemma fix_zero (cc F : C) : cc <> c1 -> F = cmul cc F -> F = c0.
Proof.
  intros Hne E. destruct F as [fr fi], cc as [cr ci]. unfold cmul in E; cbn [fst snd] in E. injection E as E1 E2.
  destruct (Req_dec ((1 - cr)² + ci²) 0) as [Z|NZ].
  - apply Rplus_sqr_eq_0 in Z. destruct Z as [Z1 Z2]. exfalso. apply Hne. unfold c1. f_equal; lra.
  - assert (A : ((1 - cr)² + ci²) * fr = 0) by (unfold Rsqr; nsatz).
    assert (B : ((1 - cr)² + ci²) * fi = 0) by (unfold Rsqr; nsatz).
    apply Rmult_integral in A, B. unfold c0. f_equal; tauto.
Qed.

(* periodicity, by induction on z from cis (2 pi) = 1 *)
Lemma cis_2PI_Z z : cis (2 * PI * IZR z) = c1.
Proof.
  assert (P : cis (2 * PI) = c1) by (unfold cis; rewrite cos_2PI, sin_2PI; reflexivity).
  induction z as [|z IH|z IH] using Z.peano_ind.
  - rewrite Rmult_0_r. apply cis_0.
  - rewrite succ_IZR, Rmult_plus_distr_l, Rmult_1_r, cis_add, IH, P. apply cmul_1_l.
  - unfold Z.pred. rewrite plus_IZR. replace (2 * PI * (IZR z + -1)) with (2 * PI * IZR z + - (2 * PI)) by ring.
    rewrite cis_add, cis_neg, IH, P. cring.
Qed.

Lemma csum_nil : csum [] = c0. Proof. reflexivity. Qed.
Lemma csum_cons a l : csum (a :: l) = cadd a (csum l). Proof. reflexivity. Qed.
Lemma csum_app l1 l2 : csum (l1 ++ l2) = cadd (csum l1) (csum l2).
Proof.
  induction l1 as [|a l IH]; [rewrite csum_nil, cadd_0_l; reflexivity|].
  rewrite <- app_comm_cons, !csum_cons, IH, cadd_assoc. reflexivity.
Qed.
Lemma csum_perm l1 l2 : Permutation l1 l2 -> csum l1 = csum l2.
Proof.
  induction 1; rewrite ?csum_cons; try congruence.
  rewrite <- !cadd_assoc, (cadd_comm y x). reflexivity.
Qed.

Lemma csum_map_additive {A} (g : C -> C) (f : A -> C) l : g c0 = c0 -> (forall a b, g (cadd a b) = cadd (g a) (g b)) ->
  csum (map (fun a => g (f a)) l) = g (csum (map f l)).
Proof.
  intros H0 Hadd. induction l as [|a l IH]; cbn [map]; [symmetry; exact H0|]. rewrite !csum_cons, IH, Hadd. reflexivity.
Qed.
Lemma csum_map_cmul {A} c (f : A -> C) l : csum (map (fun a => cmul c (f a)) l) = cmul c (csum (map f l)).
Proof. apply (csum_map_additive (cmul c)); [apply cmul_c0 | apply cmul_cadd]. Qed.
Lemma csum_map_cscale {A} r (f : A -> C) l : csum (map (fun a => cscale r (f a)) l) = cscale r (csum (map f l)).
Proof. apply (csum_map_additive (cscale r)); [apply cscale_c0 | apply cscale_cadd]. Qed.
Lemma csum_map_conj {A} (f : A -> C) l : csum (map (fun a => cconj (f a)) l) = cconj (csum (map f l)).
Proof. apply (csum_map_additive cconj); [apply cconj_c0 | apply cconj_cadd]. Qed.
Lemma csum_map_cadd {A} (f g : A -> C) l : csum (map (fun a => cadd (f a) (g a)) l) = cadd (csum (map f l)) (csum (map g l)).
Proof.
  induction l as [|a l IH]; cbn [map]; [rewrite !csum_nil; cring|]. rewrite !csum_cons, IH.
  cring.
Qed.
Lemma csum_map_const {A} (l : list A) z : csum (map (fun _ => z) l) = cscale (INR (length l)) z.
Proof.
  induction l as [|a l IH]; [cbn [map length INR]; rewrite csum_nil; cring|].
  cbn [map length]. rewrite csum_cons, IH, S_INR. cring.
Qed.

(* row vector times matrix *)
Definition rowmul (h : V3) (Rm : M3) : V3 := mvmul (mtrans Rm) h.
Lemma dot_rowmul h Rm v : vdot (rowmul h Rm) v = vdot h (mvmul Rm v).
Proof. destruct h, Rm, v. unfold rowmul, vdot, mvmul, mtrans; cbn. ring. Qed.
Lemma rowmul_mmul h A B : rowmul (rowmul h A) B = rowmul h (mmul A B).
Proof. unfold rowmul. rewrite mtrans_mmul, mvmul_mmul. reflexivity. Qed.

Definition int_vec (v : V3) : Prop := exists a b c : Z, v = mkV3 (IZR a) (IZR b) (IZR c).
Lemma int_dot u v : int_vec u -> int_vec v -> exists z : Z, vdot u v = IZR z.
Proof.
  intros (a & b & c & ->) (a' & b' & c' & ->). exists (a * a' + b * b' + c * c')%Z.
  unfold vdot; cbn. rewrite !plus_IZR, !mult_IZR. reflexivity.
Qed.
