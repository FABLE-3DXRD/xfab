(* Sums over a list grouped by a key: counting lemmas used for the explicit unit-cell sum (C08).
   dd keeps the last occurrence of every key; cnt k l is the number of members with key k. *)
From Coq Require Import Reals List Bool Permutation Lia Lra.
From XV Require Import Cplx.
Import ListNotations.

Section Keyed.
Variables A K : Type.
Variable key : A -> K.
Variable eqb : K -> K -> bool.
Hypothesis eqb_spec : forall a b, eqb a b = true <-> a = b.

Definition cnt (k : K) (l : list A) : nat := length (filter (fun p => eqb (key p) k) l).
Definition inb (k : K) (l : list A) : bool := existsb (fun p => eqb (key p) k) l.
Fixpoint dd (l : list A) : list A :=
  match l with [] => [] | a :: r => if inb (key a) r then dd r else a :: dd r end.

Lemma eqb_refl k : eqb k k = true. Proof. apply eqb_spec; reflexivity. Qed.
Lemma eqb_false a b : a <> b -> eqb a b = false.
Proof. intros H. destruct (eqb a b) eqn:E; [apply eqb_spec in E; contradiction | reflexivity]. Qed.
Lemma eqb_sym a b : eqb a b = eqb b a.
Proof. apply eq_true_iff_eq. rewrite !eqb_spec. split; congruence. Qed.

Lemma cnt_cons k a l : cnt k (a :: l) = ((if eqb (key a) k then 1 else 0) + cnt k l)%nat.
Proof. unfold cnt; cbn [filter]. destruct (eqb (key a) k); reflexivity. Qed.
Lemma inb_cons k a l : inb k (a :: l) = eqb (key a) k || inb k l.
Proof. reflexivity. Qed.

Lemma inb_In k l : inb k l = true -> exists p, In p l /\ key p = k.
Proof. unfold inb. intros H. apply existsb_exists in H. destruct H as (p & Hp & E). apply eqb_spec in E. eauto. Qed.
Lemma In_inb p l : In p l -> inb (key p) l = true.
Proof. intros H. unfold inb. apply existsb_exists. exists p. split; [exact H | apply eqb_refl]. Qed.

Lemma dd_incl l r : In r (dd l) -> In r l.
Proof.
  induction l as [|a l IH]; cbn [dd]; [tauto|]. destruct (inb (key a) l).
  - intros H. right. apply IH; exact H.
  - intros [H|H]; [left; exact H | right; apply IH; exact H].
Qed.
Lemma cnt_dd k l : cnt k (dd l) = if inb k l then 1%nat else 0%nat.
Proof.
  induction l as [|a l IH]; [reflexivity|]. cbn [dd]. rewrite inb_cons. destruct (inb (key a) l) eqn:E.
  - rewrite IH. destruct (eqb (key a) k) eqn:E2; [apply eqb_spec in E2; subst; rewrite E|]; reflexivity.
  - rewrite cnt_cons, IH. destruct (eqb (key a) k) eqn:E2; [apply eqb_spec in E2; subst; rewrite E|]; reflexivity.
Qed.

Lemma cnt_perm k l l' : Permutation l l' -> cnt k l = cnt k l'.
Proof.
  induction 1 as [|a l l' _ IH|a b l|l1 l2 l3 _ IH1 _ IH2]; [reflexivity| | |congruence].
  - rewrite !cnt_cons, IH. reflexivity.
  - rewrite !cnt_cons. lia.
Qed.

(* counting along a pairing of two lists that respects membership in the two classes *)
Lemma cnt_Forall2 a b l l' : Forall2 (fun p p' => key p = a <-> key p' = b) l l' -> cnt a l = cnt b l'.
Proof.
  induction 1 as [|p p' l l' Hp _ IH]; [reflexivity|]. rewrite !cnt_cons, IH. f_equal.
  replace (eqb (key p) a) with (eqb (key p') b); [reflexivity|].
  apply eq_true_iff_eq. rewrite !eqb_spec. symmetry. exact Hp.
Qed.

Variable T : A -> C.

Lemma csum_delta a d : (forall r, In r d -> key r = key a -> T r = T a) ->
  csum (map (fun r => cscale (INR (if eqb (key a) (key r) then 1 else 0)) (T r)) d) = cscale (INR (cnt (key a) d)) (T a).
Proof.
  induction d as [|r d IH]; intros H.
  - unfold cnt; cbn [map filter length INR]. rewrite csum_nil. cring.
  - cbn [map]. rewrite csum_cons, IH by (intros; apply H; [right|]; assumption). rewrite cnt_cons.
    rewrite (eqb_sym (key r) (key a)). destruct (eqb (key a) (key r)) eqn:E.
    + apply eqb_spec in E. rewrite (H r (or_introl eq_refl) (eq_sym E)), plus_INR. cring.
    + cbn [Nat.add INR]. cring.
Qed.

(* double counting against any list d of representatives in which every key of l occurs once: each member of l is counted
   at the one representative that has its key *)
Lemma csum_by_reps d l : (forall a, In a l -> cnt (key a) d = 1%nat /\ forall r, In r d -> key r = key a -> T r = T a) ->
  csum (map T l) = csum (map (fun r => cscale (INR (cnt (key r) l)) (T r)) d).
Proof.
  induction l as [|a l IH]; intros H.
  - unfold cnt; cbn [map filter length INR]. rewrite csum_map_cscale, csum_nil. cring.
  - destruct (H a (or_introl eq_refl)) as [H1 HT]. cbn [map]. rewrite csum_cons, IH by (intros; apply H; right; assumption).
    replace (T a) with (cscale (INR (cnt (key a) d)) (T a)) by (rewrite H1; cbn [INR]; cring).
    rewrite <- (csum_delta a d HT), <- csum_map_cadd. f_equal. apply map_ext. intros r. rewrite cnt_cons, plus_INR. cring.
Qed.

Lemma csum_dd l : (forall p q, In p l -> In q l -> key p = key q -> T p = T q) ->
  csum (map T l) = csum (map (fun r => cscale (INR (cnt (key r) l)) (T r)) (dd l)).
Proof.
  intros H. apply csum_by_reps. intros a Ha. split; [rewrite cnt_dd, (In_inb a l Ha); reflexivity|].
  intros r Hr Hk. apply H; [apply dd_incl; exact Hr | exact Ha | exact Hk].
Qed.

Lemma csum_uniform l m : (forall p q, In p l -> In q l -> key p = key q -> T p = T q) ->
  (forall p, In p l -> cnt (key p) l = m) -> csum (map T l) = cscale (INR m) (csum (map T (dd l))).
Proof.
  intros H Hm. rewrite (csum_dd l H), <- csum_map_cscale. f_equal. apply map_ext_in. intros r Hr.
  rewrite (Hm r (dd_incl _ _ Hr)). reflexivity.
Qed.
End Keyed.

Lemma length_uniform A K (key : A -> K) eqb (eqb_spec : forall a b, eqb a b = true <-> a = b) l m :
  (forall p, In p l -> cnt A K key eqb (key p) l = m) -> INR (length l) = (INR m * INR (length (dd A K key eqb l)))%R.
Proof.
  intros Hm.
  pose proof (csum_uniform A K key eqb eqb_spec (fun _ => c1) l m (fun _ _ _ _ _ => eq_refl) Hm) as E.
  rewrite !csum_map_const in E. unfold cscale, c1 in E; cbn [fst snd] in E. injection E as E _. lra.
Qed.
